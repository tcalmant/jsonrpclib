(** Preservation for join(): who holds the queue mutex and what a timed join is about to return (I_jexit), the
    mark a join compares with (I_jcall), and the two join monitors (I_mon). *)
From JR Require Import PoolInvDefs PoolInvA.

(** [cjcall]: the task counter at the moment the client's current join() was called ([cret] sets it); the monitor join_bad
    compares with it, so C11_join_sound rests on this bound *)
Definition I_jcall (s : st) : Prop := forall c, (cjcall (cs s c) <= next_task s)%nat.

Definition mutex_label (l : clabel) : bool := match l with CJWait | CJRet | CJExit _ => true | _ => false end.
(** the clause of I_jexit for client [c] at label [l] *)
Definition jexit_at (s : st) (c : nat) (l : clabel) : Prop :=
  match l with
  | CJExit r => qmutex s = Some c /\ r = (unfinished s <=? 0)
  | CJWait | CJRet => qmutex s = Some c
  | _ => qmutex s <> Some c
  end.
Lemma jexit_outside (s' : st) c l : mutex_label l = false -> qmutex s' <> Some c -> jexit_at s' c l.
Proof. destruct l; cbn; intros; try discriminate; assumption. Qed.
(** the count of unfinished tasks matters to a mutex holder only *)
Lemma jexit_same s s' c l :
  qmutex s' = qmutex s -> (mutex_label l = true -> unfinished s' = unfinished s) -> jexit_at s c l -> jexit_at s' c l.
Proof. unfold jexit_at. intros -> Hu. destruct l; auto. intros [? ->]. rewrite Hu by reflexivity. auto. Qed.
Lemma jexit_free {s c l} : qfree s = true -> jexit_at s c l -> mutex_label l = false.
Proof.
  unfold qfree, jexit_at. destruct (qmutex s); [discriminate|].
  destruct l; try reflexivity; intros _ H; try discriminate; destruct H; discriminate.
Qed.
Lemma jexit_other {s c c' l} : qmutex s = Some c -> c' <> c -> jexit_at s c' l -> mutex_label l = false.
Proof.
  unfold jexit_at. intros E Hne. destruct l; try reflexivity; rewrite E; intros H;
    assert (X : Some c = Some c') by tauto; congruence.
Qed.

Lemma P_jexit {s t f s'} : I_jexit s -> step s t f = Some s' -> I_jexit s'.
Proof.
  intros Hj H. change (forall c, jexit_at s c (cpc (cs s c))) in Hj. change (forall c, jexit_at s' c (cpc (cs s' c))).
  destruct (step_Step H) as [w l h cl s1 Ew HS | c l p jc s1 Ec HS]; intros c'.
  - (* a worker moves: the clients stay; it touches the queue only when the mutex is free *)
    specialize (Hj c'). destruct HS; simp; try exact Hj.
    all: apply (jexit_same s); try reflexivity; try exact Hj; intros Hm; rewrite (jexit_free Hqf Hj) in Hm; discriminate.
  - pose proof (Hj c) as Hc. rewrite Ec in Hc. cbn [cpc] in Hc.
    destruct (Nat.eq_dec c' c) as [->|Hne].
    + (* the mover enters the three labels taking or keeping the mutex, and leaves them giving it back *)
      destruct HS; simp; rewrite upd_same; cbn [cpc jexit_at] in *; simp; try assumption; try congruence.
      (* it goes to a computed label, none of the three, without the mutex *)
      all: try solve [apply jexit_outside; [try label_cases; reflexivity | exact Hc]].
      * (* CJRet *) auto.
      * (* CJExit: join returns *) apply jexit_outside; [label_cases; reflexivity | discriminate].
    + (* another client keeps its label; queue operations need the mutex free; the mutex moves only to or from the mover *)
      specialize (Hj c'). rewrite (CStep_others _ HS Hne).
      destruct HS; simp; try exact Hj.
      all: try solve [apply (jexit_same s); try reflexivity; try exact Hj; intros Hm; rewrite (jexit_free Hqf Hj) in Hm; discriminate].
      * (* CJEnter *) apply jexit_outside; [exact (jexit_free Hqf Hj) | simp; congruence].
      * (* CJWait *) apply jexit_outside; [exact (jexit_other Hc Hne Hj) | simp; discriminate].
      * (* CJReacq *) apply jexit_outside; [exact (jexit_free Hqf Hj) | simp; congruence].
      * (* CJExit *) apply jexit_outside; [exact (jexit_other (proj1 Hc) Hne Hj) | simp; discriminate].
Qed.

Lemma P_jcall {s t f s'} : I_jcall s -> step s t f = Some s' -> I_jcall s'.
Proof.
  intros Hj H c'. specialize (Hj c').
  destruct (step_Step H) as [w l h cl s1 Ew HS | c l p jc s1 Ec HS].
  - (* a worker moves: neither the clients nor the task counter change *)
    destruct (WStep_frame HS) as [-> _]. destruct (WStep_next HS) as [-> _]. exact Hj.
  - (* a client moves: the task counter does not decrease; the mover keeps its mark or sets it to the counter *)
    pose proof (CStep_next_task HS) as Hnt.
    destruct (Nat.eq_dec c' c) as [->|Hne]; [|rewrite (CStep_others _ HS Hne); lia].
    rewrite Ec in Hj.
    destruct HS; simp; rewrite upd_same; cbn [cjcall]; try lia; destruct Hret as [_ [->| ->]]; simp; lia.
Qed.

Lemma clear_pending_nonneg s : 0 <= clear_pending s.
Proof. unfold clear_pending. destruct (cpc (cs s 0%nat)); lia. Qed.

Lemma unf_zero_settled s :
  I_unf s -> I_place s -> unfinished s <= 0 -> forall t, (t < next_task s)%nat -> settled s t = true.
Proof.
  (* nothing is queued and no worker holds an item (I_unf), so of the three places of I_place only the last is left *)
  intros Hu Hp Hz t Ht. unfold I_unf in Hu. pose proof (clear_pending_nonneg s).
  pose proof (Hp t Ht) as H1. pose proof (qocc_le_length t (q s)).
  assert (count (holds_any t) (ws s) (next_w s) <= count holding (ws s) (next_w s))%nat
    by (apply count_le; intros; now apply (holds_any_holding t)).
  destruct (settled s t); [reflexivity | cbn in H1; lia].
Qed.

Lemma all_settled_ok s n :
  I_unf s -> I_place s -> unfinished s <= 0 -> (n <= next_task s)%nat -> all_settled_below s n = true.
Proof.
  intros Hu Hp Hz Hn. unfold all_settled_below. apply forallb_forall. intros t Ht.
  apply in_seq in Ht. apply unf_zero_settled; auto; lia.
Qed.

Lemma P_mon {s t f s'} :
  I_unf s -> I_place s -> I_jexit s -> I_jcall s -> I_mon s -> step s t f = Some s' -> I_mon s'.
Proof.
  intros Hu Hp Hje Hjc [Hm1 Hm2] H. unfold I_mon.
  destruct (step_Step H) as [w l h cl s1 Ew HS | c l p jc s1 Ec HS].
  - destruct (WStep_frame HS) as (_ & _ & _ & _ & -> & ->). auto.
  - (* the monitors are written where a client's own join returns: with nothing unfinished every task accepted
       before the call is settled (all_settled_ok); a timed join returns what it read under the mutex (I_jexit) *)
    specialize (Hjc c). specialize (Hje c). rewrite Ec in Hjc, Hje. cbn [cjcall cpc] in Hjc, Hje.
    destruct HS; simp; auto; rewrite Hm1, Hm2; cbn [orb].
    + (* CJTest *) rewrite (all_settled_ok s jc Hu Hp Hg Hjc). auto.
    + (* CJQJoin *) rewrite (all_settled_ok s jc Hu Hp Hg Hjc). auto.
    + (* CJExit *) destruct Hje as [_ ->]. destruct (unfinished s <=? 0) eqn:E; cbn [andb negb]; auto.
      apply Z.leb_le in E. rewrite (all_settled_ok s jc Hu Hp E Hjc). auto.
Qed.
