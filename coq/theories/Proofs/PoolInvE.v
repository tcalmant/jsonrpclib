(** start() and stop(), part 1: the stop flag and its two monitors along the controller's labels (I_flag); no
    thread is created while the pool is stopped, except by an enqueue that stop() will wait for (I_nocreate). *)
From JR Require Import PoolInvDefs PoolInvA.

Definition stop_region (l : clabel) : bool :=
  match l with
  | CSPLock | CSPPut _ | CSPCopy | CSPUnlock _ | CSPAlive _ | CSPJoin _ | CSPAlive2 _ | CSPDel
  | CCLLock | CCLGet | CCLDone | CCLUnlock | CJTest _ JClear | CJQJoin JClear => true
  | _ => false
  end.
Definition start_region (l : clabel) : bool :=
  match l with
  | CSTQsize | CSTLoopA _ _ | CSTLoopB _ => true
  | CSLock k | CSTest k | CSNbInc k | CSTStart k _ | CSAppend k _ | CSUnlock k => lifecycle_k k
  | _ => false
  end.
Definition creating (l : clabel) : bool :=
  match l with CSNbInc _ | CSTStart _ _ | CSAppend _ _ => true | _ => false end.

Definition ctl (s : st) : clabel := cpc (cs s 0%nat).

(** the six conjuncts, F1..F6 in the proofs: inside stop(); inside start(); after stop() has returned; after start() has
    returned; about to clear the flag; about to set it *)
Definition I_flag (s : st) : Prop :=
  (stop_region (ctl s) = true -> stopped s = true /\ start_done s = false /\ stop_done s = false) /\
  (start_region (ctl s) = true -> stopped s = false /\ start_done s = false /\ stop_done s = false) /\
  (stop_done s = true -> stopped s = true /\ start_done s = false) /\
  (start_done s = true -> stopped s = false /\ stop_region (ctl s) = false /\ start_region (ctl s) = false) /\
  (ctl s = CSTClear -> stopped s = true) /\ (ctl s = CSPSet -> stopped s = false).

Definition I_nocreate (s : st) : Prop :=
  forall c, creating (cpc (cs s c)) = true -> stopped s = false \/ ctl s = CSPLock.

Lemma ctl_set_c S y : ctl (set_c S 0%nat y) = cpc y.
Proof. unfold ctl. cbn [cs set_c]. rewrite upd_same. reflexivity. Qed.
Lemma ctl_set_other S c y : c <> 0%nat -> ctl (set_c S c y) = ctl S.
Proof. intros Hc. unfold ctl. cbn [cs set_c]. rewrite upd_other by auto. reflexivity. Qed.

(** no flag is written, the controller goes from [l] to [l'] (or stays: l' = l) without entering or leaving start() or
    stop(); it may arrive at the line that clears or sets the stop flag, having just tested it *)
Lemma flag_frame s s' l l' : ctl s = l -> ctl s' = l' ->
  stopped s' = stopped s -> stop_done s' = stop_done s -> start_done s' = start_done s ->
  stop_region l' = stop_region l -> start_region l' = start_region l ->
  (l' = CSTClear -> stopped s = true) -> (l' = CSPSet -> stopped s = false) ->
  I_flag s -> I_flag s'.
Proof.
  unfold I_flag. intros <- <- -> -> -> -> -> H5 H6 (F1 & F2 & F3 & F4 & _ & _).
  repeat apply conj; assumption.
Qed.

Lemma entry_regions {c l} : entry c l -> stop_region l = false /\ start_region l = false /\ l <> CSTClear /\ l <> CSPSet.
Proof. destruct 1; repeat split; discriminate. Qed.
Lemma entry_creating c l : entry c l -> creating l = false.
Proof. destruct 1; reflexivity. Qed.
Lemma start_in_life l : lifecycle l = false -> start_region l = false.
Proof. destruct l; cbn; auto; discriminate. Qed.

Lemma P_flag {s t f s'} : I_ctl s -> I_flag s -> step s t f = Some s' -> I_flag s'.
Proof.
  intros Hctl Hf H. pose proof Hf as (F1 & F2 & F3 & F4 & F5 & F6).
  destruct (step_Step H) as [w l h cl s1 Ew HS | c l p jc s1 Ec HS].
  - (* a worker moves: it writes neither the flags nor a client *)
    destruct (WStep_frame HS) as (Ecs & Est & Esd & Estd & _).
    apply (flag_frame s s1 (ctl s) (ctl s)); unfold ctl; rewrite ?Ecs; auto.
  - destruct (Nat.eq_dec c 0) as [->|Hc0].
    2:{ (* a client other than the controller is outside start() and stop(): it writes no flag *)
        specialize (Hctl c Hc0). rewrite Ec in Hctl.
        destruct (CStep_flags HS Hctl) as (Est & Esd & Estd).
        apply (flag_frame s s1 (ctl s) (ctl s)); unfold ctl; rewrite ?(CStep_others 0%nat HS) by auto; auto. }
    assert (E0 : ctl s = l) by (unfold ctl; rewrite Ec; reflexivity).
    destruct HS.
    (* the steps that write no flag.  Inside start() or stop() the controller stays inside (label_cases for the loop heads
       and kret); in enqueue() and join() it stays outside both, also when the call returns, to an entry label
       (label_cases again: the six returns that write no flag); CSTTest and CSPTest hand the flag they have read (Hst) to
       the line that clears or sets it *)
    all: try solve [try label_cases; apply (flag_frame s _ _ _ E0 (ctl_set_c _ _)); cbn [cpc];
                    solve [reflexivity | exact Hf | intros _; exact Hst | discriminate]].
    (* the four writes of a flag *)
    all: unfold I_flag; rewrite ctl_set_c; simp; cbn [cpc]; rewrite E0 in F1, F2.
    + (* CSTClear: start() clears the stop flag and enters its region *)
      cbn. repeat apply conj; intros; (discriminate || auto).
    + (* CSTLoopB 0: start() returns; in its region the pool was running and stop() had not returned *)
      destruct (F2 eq_refl) as (-> & _ & ->). destruct (entry_regions (proj1 Hret)) as (-> & -> & ? & ?).
      repeat apply conj; intros; (discriminate || contradiction || auto).
    + (* CSPSet: stop() sets the stop flag and enters its region *)
      cbn. repeat apply conj; intros; (discriminate || auto).
    + (* CCLUnlock: stop() returns; in its region the pool was stopped *)
      destruct (F1 eq_refl) as (-> & _ & _). destruct (entry_regions (proj1 Hret)) as (-> & -> & ? & ?).
      repeat apply conj; intros; (discriminate || contradiction || auto).
Qed.

(** clear() runs inside stop(), where the pool is stopped *)
Lemma clear_pending_running s : I_flag s -> stopped s = false -> clear_pending s = 0.
Proof.
  intros (F1 & _) Hst. unfold clear_pending. destruct (cpc (cs s 0%nat)) eqn:E; try reflexivity.
  destruct F1 as [Hst' _]; [unfold ctl; rewrite E; reflexivity | congruence].
Qed.

Lemma creating_locked l : creating l = true -> (0 < cdepth l)%nat.
Proof. destruct l; try discriminate; intros _; cbn; lia. Qed.

(** a client moves, the stop flag stays; the client neither leaves CSPLock nor begins to create a thread *)
Lemma nocreate_client s S c y :
  cs S = cs s -> stopped S = stopped s -> cpc (cs s c) <> CSPLock ->
  (creating (cpc y) = true -> creating (cpc (cs s c)) = true) ->
  I_nocreate s -> I_nocreate (set_c S c y).
Proof.
  intros Ecs Est Hl Hy Hn c' Hc'. unfold ctl. simp. rewrite Ecs in *. rewrite Est.
  assert (Hc : creating (cpc (cs s c')) = true).
  { exact (upd_keeps (fun x => creating (cpc x) = true) _ c y c' Hy Hc'). }
  destruct (Hn c' Hc) as [E|E]; [left; exact E | right].
  destruct (Nat.eq_dec c 0) as [->|Hne]; [contradiction | rewrite upd_other by auto; exact E].
Qed.

Lemma P_nocreate {s t f s'} : I_ctl s -> I_lock s -> I_nocreate s -> step s t f = Some s' -> I_nocreate s'.
Proof.
  intros Hctl Hlk Hn H.
  destruct (step_Step H) as [w l h cl s1 Ew HS | c l p jc s1 Ec HS].
  - destruct (WStep_frame HS) as (Ecs & Est & _). unfold I_nocreate, ctl. rewrite Ecs, Est. exact Hn.
  - destruct HS.
    all: try solve [apply (nocreate_client s); rewrite ?Ec; cbn [cpc creating];
                    [reflexivity | reflexivity | discriminate | try label_cases; (discriminate || exact id) | exact Hn]].
    + (* CSTest passes: the pool is not stopped *)
      intros c' _. left. exact Hst.
    + (* CSTClear: start() clears the stop flag *)
      intros c' _. left. reflexivity.
    + (* CSPSet: the controller sets the stop flag and is at CSPLock *)
      intros c' _. right. rewrite (ctl_only s c Hctl) by (rewrite Ec; reflexivity). apply ctl_set_c.
    + (* CSPLock: stop() takes the lock, which a client creating a thread would hold *)
      intros c' Hc'. exfalso. simp. destruct (Nat.eq_dec c' c) as [->|Hne].
      * rewrite upd_same in Hc'. cbn [cpc] in Hc'. destruct (length (threads s)); discriminate Hc'.
      * rewrite upd_other in Hc' by assumption. destruct Hacq as [_ Hf]. destruct (Hf (TC c')) as [_ Hz]; [congruence|].
        rewrite (proj2 Hlk) in Hz. pose proof (creating_locked _ Hc'). lia.
Qed.
