(** Lemmas for property C20 (handlers, ignore lists, configured names) beside the node-by-node equations
    of dump in JsonClassEq.v; the C20 statements are proved from both in Props/C20.v. *)
From JR Require Import JsonClass JsonClassEq.

Lemma tyid_eqb_eq a b : tyid_eqb a b = true -> a = b.
Proof.
  destruct a, b; cbn [tyid_eqb]; intros H; try discriminate H; try reflexivity.
  - apply String.eqb_eq in H. now subst.
  - apply N.eqb_eq in H. now subst.
Qed.

Lemma mro_find_pred tab c p d : mro_find tab c p = Some d -> p d = true.
Proof.
  unfold mro_find. induction (ancestors tab c) as [|a r IH]; [discriminate|].
  destruct (find_class tab a) as [d'|]; [|exact IH]. destruct (p d') eqn:E; [|exact IH].
  now intros [= <-].
Qed.

Theorem ignore_attribute_consulted E ia ign c fields :
  ignore_list E ia ign c fields =
  match (match flookup ia fields with
         | Some x => x
         | None => match mro_find (e_ctab E) c (ign_pred ia) with
                   | Some d => match c_ign d with Some (_, x) => x | None => VList [] end
                   | None => VList []
                   end
         end) with
  | VList l => Ok (l ++ ign)%list
  | _ => Raise EType
  end.
Proof. reflexivity. Qed.

(** a name in the ignore argument is in the list dump filters by (line 193: own ++ ignore) *)
Lemma ignore_argument_ignored {E ia ign c fields ignl n} :
  ignore_list E ia ign c fields = Ok ignl -> In (VStr n) ign -> name_ignored n ignl = true.
Proof.
  unfold ignore_list, name_ignored. intros H Hin.
  destruct (match flookup ia fields with Some x0 => x0 | None => _ end); try discriminate H.
  injection H as <-. apply existsb_exists. exists (VStr n). split; [apply in_or_app; now right|].
  rewrite py_eq_str. apply String.eqb_refl.
Qed.

Lemma In_of_assoc k m v : assoc k m = Some v -> exists k', In (k', v) m.
Proof.
  induction m as [|[k0 v0] r IH]; [discriminate|]. cbn [assoc]. destruct (py_eq k k0).
  - intros [= ->]. exists k0. now left.
  - intros H. destruct (IH H) as [k' Hk]. exists k'. now right.
Qed.
