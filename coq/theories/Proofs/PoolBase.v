(** For the pool model: counting the workers of a class ([count] and its lemmas), lemmas about [upd], equality of
    threads, the depth at which a thread holds the pool lock ([lockd]), the invariant rule for [run], and [simp]. *)
From JR Require Export Pool.
From Coq Require Export Lia.

Definition b2n (b : bool) : nat := if b then 1%nat else 0%nat.

Fixpoint count {A} (g : A -> bool) (f : nat -> A) (n : nat) : nat :=
  match n with
  | O => 0%nat
  | S k => (count g f k + b2n (g (f k)))%nat
  end.

Lemma upd_same {A} (f : nat -> A) i a : upd f i a i = a.
Proof. unfold upd. now rewrite Nat.eqb_refl. Qed.
Lemma upd_other {A} (f : nat -> A) i a j : j <> i -> upd f i a j = f j.
Proof. unfold upd. intros H. apply Nat.eqb_neq in H. now rewrite H. Qed.
(** backwards: whoever has P after the update had it before, if the new entry has it only when the old one had *)
Lemma upd_keeps {A} (P : A -> Prop) (f : nat -> A) w x w' : (P x -> P (f w)) -> P (upd f w x w') -> P (f w').
Proof. intros Hx. destruct (Nat.eq_dec w' w) as [->|Hne]; [rewrite upd_same; exact Hx | rewrite upd_other by assumption; exact id]. Qed.

Lemma count_upd_ge {A} (g : A -> bool) f w x n : (n <= w)%nat -> count g (upd f w x) n = count g f n.
Proof.
  induction n as [|k IH]; intros H; cbn [count]; [reflexivity|].
  rewrite IH by lia. rewrite upd_other by lia. reflexivity.
Qed.

Lemma count_upd_lt {A} (g : A -> bool) f w x n :
  (w < n)%nat -> (count g (upd f w x) n + b2n (g (f w)) = count g f n + b2n (g x))%nat.
Proof.
  induction n as [|k IH]; intros H; [lia|]. cbn [count].
  destruct (Nat.eq_dec w k) as [->|Hne].
  - rewrite count_upd_ge by lia. rewrite upd_same. lia.
  - rewrite upd_other by lia. specialize (IH ltac:(lia)). lia.
Qed.

Lemma count_move {A} (g : A -> bool) f w x n : (w < n)%nat -> g x = g (f w) -> count g (upd f w x) n = count g f n.
Proof. intros Hw Hg. pose proof (count_upd_lt g f w x n Hw). rewrite Hg in *. lia. Qed.

Lemma count_new {A} (g : A -> bool) f n x : count g (upd f n x) (S n) = (count g f n + b2n (g x))%nat.
Proof. cbn [count]. rewrite count_upd_ge by lia. now rewrite upd_same. Qed.

Lemma count_S {A} (g : A -> bool) f n : count g f (S n) = (count g f n + b2n (g (f n)))%nat.
Proof. reflexivity. Qed.

Lemma count_le {A} (g h : A -> bool) f n :
  (forall i, (i < n)%nat -> g (f i) = true -> h (f i) = true) -> (count g f n <= count h f n)%nat.
Proof.
  induction n as [|k IH]; intros H; cbn [count]; [lia|].
  specialize (IH (fun i Hi => H i ltac:(lia))).
  specialize (H k ltac:(lia)). destruct (g (f k)); cbn [b2n]; [rewrite (H eq_refl); cbn [b2n]; lia | lia].
Qed.

Lemma count_zero {A} (g : A -> bool) f n i : count g f n = 0%nat -> (i < n)%nat -> g (f i) = false.
Proof.
  induction n as [|k IH]; intros H Hi; [lia|]. cbn [count] in H.
  destruct (Nat.eq_dec i k) as [->|]; [destruct (g (f k)); cbn in H; [lia|reflexivity] | apply IH; lia].
Qed.

Lemma count_all_false {A} (g : A -> bool) f n : (forall i, (i < n)%nat -> g (f i) = false) -> count g f n = 0%nat.
Proof.
  induction n as [|k IH]; intros H; cbn [count]; [reflexivity|].
  rewrite IH by (intros; apply H; lia). rewrite (H k) by lia. reflexivity.
Qed.

Lemma count_lt_witness {A} (g h : A -> bool) f n :
  (count g f n < count h f n)%nat -> exists i, (i < n)%nat /\ h (f i) = true /\ g (f i) = false.
Proof.
  induction n as [|k IH]; cbn [count]; intros H; [lia|].
  (* the excess is there below k already, or k is the witness *)
  destruct (Nat.lt_ge_cases (count g f k) (count h f k)) as [Hlt|Hge].
  - destruct (IH Hlt) as (i & Hi & ?). exists i. split; [lia|assumption].
  - exists k. destruct (h (f k)), (g (f k)); cbn [b2n] in H; [lia | auto | lia | lia].
Qed.

Lemma count_pos_witness {A} (g : A -> bool) f n : (1 <= count g f n)%nat -> exists i, (i < n)%nat /\ g (f i) = true.
Proof.
  intros H. destruct (count_lt_witness (fun _ => false) g f n) as (i & Hi & Hg & _); [|eauto].
  rewrite count_all_false by reflexivity. lia.
Qed.

Lemma count_ext {A} (g : A -> bool) f f' n : (forall i, (i < n)%nat -> g (f' i) = g (f i)) -> count g f' n = count g f n.
Proof. induction n as [|k IH]; intros H; cbn [count]; [reflexivity|]. rewrite IH by (intros; apply H; lia). rewrite (H k) by lia. reflexivity. Qed.

(** [g1] and [g2] exclude each other and lie inside [h], said pointwise *)
Lemma count_disjoint_le {A} (g1 g2 h : A -> bool) f n :
  (forall x, (b2n (g1 x) + b2n (g2 x) <= b2n (h x))%nat) -> (count g1 f n + count g2 f n <= count h f n)%nat.
Proof. intros H. induction n as [|k IH]; cbn [count]; [lia | specialize (H (f k)); lia]. Qed.

Lemma count_pos {A} (g : A -> bool) f n i : (i < n)%nat -> g (f i) = true -> (1 <= count g f n)%nat.
Proof.
  intros Hi Hg. destruct (count g f n) eqn:E; [|lia].
  rewrite (count_zero g f n i E Hi) in Hg. discriminate.
Qed.

Lemma count_le1 {A} (g : A -> bool) f n i j :
  (count g f n <= 1)%nat -> (i < n)%nat -> (j < n)%nat -> g (f i) = true -> g (f j) = true -> i = j.
Proof.
  induction n as [|k IH]; intros H Hi Hj Gi Gj; [lia|]. cbn [count] in H.
  destruct (Nat.eq_dec i k) as [->|Ni], (Nat.eq_dec j k) as [->|Nj]; try reflexivity.
  - rewrite Gi in H. cbn in H. pose proof (count_pos g f k j ltac:(lia) Gj). lia.
  - rewrite Gj in H. cbn in H. pose proof (count_pos g f k i ltac:(lia) Gi). lia.
  - apply IH; try lia; assumption.
Qed.

Definition lockd (s : st) (t : thr) : nat :=
  match lock s with
  | Some (o, d) => if thr_eqb o t then d else 0%nat
  | None => 0%nat
  end.

Lemma thr_eqb_eq a b : thr_eqb a b = true <-> a = b.
Proof.
  destruct a, b; cbn; split; intros H; try discriminate; try (apply Nat.eqb_eq in H; congruence);
    inversion H; apply Nat.eqb_refl.
Qed.
Lemma thr_eqb_refl a : thr_eqb a a = true.
Proof. now apply thr_eqb_eq. Qed.
Lemma thr_eqb_neq a b : a <> b -> thr_eqb a b = false.
Proof. intros H. destruct (thr_eqb a b) eqn:E; [apply thr_eqb_eq in E; contradiction | reflexivity]. Qed.

Lemma thr_eq_dec (a b : thr) : {a = b} + {a <> b}.
Proof. decide equality; apply Nat.eq_dec. Qed.

Theorem pool_invariant (I : st -> Prop) :
  (forall s t f s', I s -> step s t f = Some s' -> I s') -> forall sched s, I s -> I (run sched s).
Proof.
  intros Hs. induction sched as [|[t f] r IH]; intros s H; [exact H|].
  apply IH. destruct (step s t f) eqn:E; [eapply Hs; eassumption | exact H].
Qed.

(** computes, in the goal and in every hypothesis, the fields of a state built with the setters *)
Ltac simp :=
  cbn [maxT minT stopped q unfinished qmutex epoch lock threads next_w nb_threads nb_active nb_pending next_task
       ws cs tstarts tdone tdropped start_log stop_done start_done join_bad joinf_bad late_start
       set_w set_c set_lock set_queue set_qmutex set_counters set_threads set_stopped set_next_task set_hist set_jmon
       wgo cgo task_done wpc wheld wclean cpc cprog cjcall] in *.
