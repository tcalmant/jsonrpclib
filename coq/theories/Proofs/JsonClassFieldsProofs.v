(** Attribute maps ([flookup], [fset], [fset_all] of Model/JsonClass.v): pure list facts.  They end in
    [reload_of_wf_instance]: constructing an object anew and assigning all attributes of a well-formed
    instance (one that carries the constructor's attributes first, each name once) gives the
    instance's attribute map back. *)
From JR Require Import JsonClass JsonClassEq.

Lemma flookup_fset fs k v k' :
  flookup k' (fset fs k v) = if String.eqb k' k then Some v else flookup k' fs.
Proof.
  induction fs as [|[k0 v0] r IH]; cbn [fset flookup].
  - reflexivity.
  - destruct (String.eqb k k0) eqn:E0; cbn [flookup].
    + apply String.eqb_eq in E0. subst k0. destruct (String.eqb k' k); reflexivity.
    + destruct (String.eqb k' k0) eqn:E1; [|exact IH].
      apply String.eqb_eq in E1. subst k0. rewrite String.eqb_sym in E0. now rewrite E0.
Qed.

Lemma flookup_none_of_not_mem k fs : mem_str k (map fst fs) = false -> flookup k fs = None.
Proof.
  induction fs as [|[k0 v0] r IH]; [reflexivity|]. cbn [map fst mem_str existsb flookup]. intros H.
  apply orb_false_iff in H as [H1 H2]. rewrite H1. exact (IH H2).
Qed.

Lemma flookup_fset_all items : forall init k,
  nodup_str (map fst items) = true ->
  flookup k (fset_all init items) = match flookup k items with Some v => Some v | None => flookup k init end.
Proof.
  unfold fset_all. induction items as [|[k1 v1] r IH]; intros init k Hnd; [reflexivity|].
  cbn [fold_left fst snd map nodup_str flookup] in *. apply andb_true_iff in Hnd as [H1 H2].
  rewrite (IH _ k H2), flookup_fset. destruct (String.eqb k k1) eqn:E; [|reflexivity].
  apply String.eqb_eq in E. subst k1. apply negb_true_iff in H1. now rewrite (flookup_none_of_not_mem k r H1).
Qed.

Lemma keys_fset fs k v :
  map fst (fset fs k v) = if mem_str k (map fst fs) then map fst fs else (map fst fs ++ [k])%list.
Proof.
  induction fs as [|[k0 v0] r IH]; [reflexivity|]. cbn [fset map fst mem_str existsb].
  destruct (String.eqb k k0) eqn:E; cbn [map fst orb]; [reflexivity|].
  rewrite IH. unfold mem_str. destruct (existsb (String.eqb k) (map fst r)); reflexivity.
Qed.

Lemma fset_all_step init k v items : fset_all init ((k, v) :: items) = fset_all (fset init k v) items.
Proof. reflexivity. Qed.

Lemma fset_all_cons k x items : forall fs,
  mem_str k (map fst items) = false -> fset_all ((k, x) :: fs) items = (k, x) :: fset_all fs items.
Proof.
  unfold fset_all. induction items as [|[k' v] r IH]; intros fs H; [reflexivity|].
  cbn [map fst mem_str existsb] in H. apply orb_false_iff in H as [H1 H2].
  cbn [fold_left fst snd fset]. rewrite String.eqb_sym, H1. exact (IH _ H2).
Qed.

Lemma fset_all_nil items : nodup_str (map fst items) = true -> fset_all [] items = items.
Proof.
  induction items as [|[k v] r IH]; [reflexivity|]. cbn [map fst nodup_str].
  intros [H1%negb_true_iff H2]%andb_true_iff.
  rewrite fset_all_step. cbn [fset]. now rewrite fset_all_cons, IH.
Qed.

Lemma fset_all_app init a b : fset_all init (a ++ b) = fset_all (fset_all init a) b.
Proof. unfold fset_all. apply fold_left_app. Qed.

Lemma flookup_In n v fs : flookup n fs = Some v -> In (n, v) fs.
Proof.
  induction fs as [|[k y] r IH]; [discriminate|]. cbn [flookup]. destruct (String.eqb n k) eqn:Ek; [|auto with datatypes].
  apply String.eqb_eq in Ek. intros [= ->]. subst. now left.
Qed.

Lemma flookup_of_In n o sds : nodup_str (map fst sds) = true -> In (n, o) sds -> flookup n sds = Some o.
Proof.
  induction sds as [|[k y] r IH]; [intros _ []|]. intros Hnd [Heq|Hin]; cbn [map fst nodup_str flookup] in *;
    apply andb_true_iff in Hnd as [H1 H2].
  - injection Heq as -> ->. now rewrite String.eqb_refl.
  - destruct (String.eqb n k) eqn:Ek; [|auto]. apply String.eqb_eq in Ek. subst k.
    apply negb_true_iff in H1. rewrite (flookup_none_of_not_mem n r H1) in IH. now discriminate (IH H2 Hin).
Qed.

Lemma flookup_fset_all_none b : forall a n,
  flookup n a = None -> flookup n b = None -> flookup n (fset_all a b) = None.
Proof.
  unfold fset_all. induction b as [|[k y] r IH]; intros a n Ha Hb; [exact Ha|].
  cbn [fold_left fst snd flookup] in *. destruct (String.eqb n k) eqn:E; [discriminate Hb|].
  apply IH; [|exact Hb]. rewrite flookup_fset, E. exact Ha.
Qed.

Lemma flookup_fset_all_some b : forall a n v,
  flookup n (fset_all a b) = Some v -> flookup n a = Some v \/ In (n, v) b.
Proof.
  unfold fset_all. induction b as [|[k y] r IH]; intros a n v H; [now left|].
  cbn [fold_left fst snd] in H. destruct (IH _ _ _ H) as [H1|H1]; [|right; now right].
  rewrite flookup_fset in H1. destruct (String.eqb n k) eqn:E; [|now left].
  apply String.eqb_eq in E. subst k. injection H1 as ->. right. now left.
Qed.

Lemma flookup_other n k J : n <> k -> flookup n [(k, J)] = None.
Proof. intros H. cbn [flookup]. destruct (String.eqb n k) eqn:E; [|reflexivity]. now apply String.eqb_eq in E. Qed.

Lemma nodup_str_filter (p : str * val -> bool) fs :
  nodup_str (map fst fs) = true -> nodup_str (map fst (filter p fs)) = true.
Proof.
  induction fs as [|[k x] r IH]; [reflexivity|]. cbn [map fst nodup_str filter]. intros H.
  apply andb_true_iff in H as [H1 H2]. destruct (p (k, x)); [|auto].
  cbn [map fst nodup_str]. rewrite (IH H2), andb_true_r.
  apply negb_true_iff, not_true_iff_false in H1. apply negb_true_iff, not_true_iff_false.
  intros [[k' x'] [Hk [Hin _]%filter_In]]%mem_str_In%in_map_iff. apply H1, mem_str_In, in_map_iff. now exists (k', x').
Qed.

(** the form the descriptor dict takes: the "__jsonclass__" entry, then attributes of other names *)
Lemma fset_all_under k J sds :
  nodup_str (map fst sds) = true -> mem_str k (map fst sds) = false ->
  fset_all [(k, J)] sds = (k, J) :: sds.
Proof. intros Hnd Hk. now rewrite fset_all_cons, fset_all_nil. Qed.

(** the statement: [fields] = the constructor's attributes (in the constructor's order, with any
    values) followed by further attributes, no name twice.  Each of the constructor's attributes is
    overwritten at the head of the map and stays there; the others are appended *)
Theorem reload_of_wf_instance init head tail :
  map fst init = map fst head -> nodup_str (map fst (head ++ tail)) = true ->
  fset_all init (head ++ tail) = (head ++ tail)%list.
Proof.
  revert init. induction head as [|[k v] h IH]; intros [|[k0 v0] i] Hk; try discriminate Hk; [apply fset_all_nil|].
  injection Hk as -> Hk. cbn [app map fst nodup_str]. intros [Hn%negb_true_iff Hnd]%andb_true_iff.
  rewrite fset_all_step. cbn [fset]. now rewrite String.eqb_refl, fset_all_cons, IH.
Qed.
