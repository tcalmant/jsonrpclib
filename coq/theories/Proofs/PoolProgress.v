(** Progress: the pool never deadlocks.  In every state with Inv2 and I_lockpos (every reachable state), for every
    thread t that has not terminated: t can take a step, or the holder of the pool lock can, or the holder of the queue
    mutex can ([progress], a plain disjunction: that the holder is the one t's label waits for is what needs_progress
    shows).  The exceptions: a client inside its own untimed join() while work is outstanding, and a worker created but
    not started yet, whose creator can step.  In particular stop() is never blocked for ever by the pool itself: what
    remains of "stop() always returns" is fair scheduling. *)
From JR Require Import PoolInvDefs PoolInvA PoolInvE PoolInvH PoolSafety PoolLifecycle PoolGrowth.

Definition can_step (s : st) (t : thr) : Prop := exists f s', step s t f = Some s'.
Definition lock_holder_steps (s : st) : Prop := exists o d, lock s = Some (o, d) /\ can_step s o.
Definition mutex_holder_steps (s : st) : Prop := exists m, qmutex s = Some m /\ can_step s (TC m).
Definition progress (s : st) (t : thr) : Prop := can_step s t \/ lock_holder_steps s \/ mutex_holder_steps s.

Definition I_lockpos (s : st) : Prop := normal (lock s).

Lemma P_lockpos {s t f s'} : I_lockpos s -> step s t f = Some s' -> I_lockpos s'.
Proof.
  intros Hp H. destruct (step_Step H) as [w l h cl s1 Ew HS | c l p jc s1 Ec HS]; destruct HS; try exact Hp.
  all: first [exact (acquires_normal _ _ _ Hacq) | exact (proj2 (proj2 Hrel))].
Qed.

Lemma lockd_owner s t n : lockd s t = S n -> lock s = Some (t, S n).
Proof.
  unfold lockd. destruct (lock s) as [[o d]|]; [|discriminate].
  destruct (thr_eqb o t) eqn:E; [|discriminate]. apply thr_eqb_eq in E. intros ->. subst. reflexivity.
Qed.
Lemma release_ok s t n : lock s = Some (t, S n) -> exists s', release s t = Some s'.
Proof. intros E. unfold release. rewrite E, thr_eqb_refl. eauto. Qed.
Lemma acquire_ok_own s t d : lock s = Some (t, d) -> exists s', acquire s t = Some s'.
Proof. intros E. unfold acquire. rewrite E, thr_eqb_refl. eauto. Qed.
Lemma acquire_ok_free s t : lock s = None -> exists s', acquire s t = Some s'.
Proof. intros E. unfold acquire. rewrite E. eauto. Qed.

(** What the next step of a thread needs, by its label: nothing; the pool lock, free or its own already; to hold the
    pool lock (it gives it back); the queue mutex; for Queue.get(timeout), an item and the mutex, or an empty queue
    (the timeout fires); for Queue.join(), the mutex and nothing unfinished.  [Never]: the thread has no step (not
    started, exited, program done). *)
Inductive needs := Free | Never | Lock | Unlock | Mutex | Item | Drained.

Definition wneeds (l : wlabel) : needs :=
  match l with
  | WNone | WNew | WDead => Never
  | WGet => Item
  | WSentDone | WTaskDone => Mutex
  | WLock1 | WLock2 | WLock3 | WFLock => Lock
  | WUnlock1 | WUnlock2 | WUnlock3R | WUnlock3 | WFUnlock => Unlock
  | _ => Free
  end.
Definition cneeds (l : clabel) : needs :=
  match l with
  | CDone => Never
  | CELock | CSLock _ | CSPLock | CCLLock => Lock
  | CEUnlock | CSUnlock _ | CSPUnlock _ | CCLUnlock => Unlock
  | CEPut | CSTQsize | CSPPut _ | CCLGet | CCLDone | CJEnter | CJReacq => Mutex
  | CJQJoin _ => Drained
  | _ => Free
  end.
Definition needs_of (s : st) (t : thr) : needs :=
  match t with TW w => wneeds (wpc (ws s w)) | TC c => cneeds (cpc (cs s c)) end.

Definition met (s : st) (t : thr) (n : needs) : Prop :=
  match n with
  | Free => True
  | Never => False
  | Lock => exists s', acquire s t = Some s'
  | Unlock => exists s', release s t = Some s'
  | Mutex => qfree s = true
  | Item => q s = [] \/ qfree s = true
  | Drained => qfree s = true /\ unfinished s <= 0
  end.

(** every branch of the code at this label steps *)
Ltac all_branches :=
  cbn; repeat match goal with |- exists _, match ?x with _ => _ end = _ => destruct x end; eexists; reflexivity.

(** The table agrees with [wstep] and [cstep]: label by label, what the code tests is what the table says.  A worker about to
    begin or complete a body holds a task (I_wf); thread.join(3) and the parked wait of a timed join step by their timeout. *)
Lemma met_can_step s t : I_wf s -> met s t (needs_of s t) -> can_step s t.
Proof.
  intros Hwf. unfold can_step. destruct t as [w|c]; cbn [needs_of step].
  - specialize (Hwf w). unfold wstep. destruct (ws s w) as [pc h cl]. cbn [wpc wheld wclean] in *.
    destruct pc; cbn [wneeds met]; intros M; try contradiction.
    all: try solve [exists false; try rewrite M; all_branches].
    all: try match type of M with exists _, _ => destruct M as [s1 M]; exists false; rewrite M; eexists; reflexivity end.
    (* WBegin, WBody: the worker holds a task *)
    all: try solve [destruct h as [[u|]|], cl; try discriminate Hwf; exists false; eexists; reflexivity].
    (* WGet *)
    destruct (q s) as [|it r]; [exists true | destruct M as [M|M]; [discriminate M|]; exists false; rewrite M]; eexists; reflexivity.
  - unfold cstep. destruct (cs s c) as [pc p jc]. cbn [cpc cprog cjcall].
    destruct pc; cbn [cneeds met]; intros M; try contradiction.
    all: try solve [exists false; try rewrite M; all_branches].
    all: try match type of M with exists _, _ => destruct M as [s1 M]; exists false; rewrite M; eexists; reflexivity end.
    + (* CSPJoin *) destruct ths; [exists false | exists true]; eexists; reflexivity.
    + (* CJQJoin *) destruct M as [M Hu]. apply Z.leb_le in Hu. exists false. rewrite M, Hu. eexists; reflexivity.
    + (* CJParked *) exists true. eexists; reflexivity.
Qed.

Lemma unlock_depth s t : needs_of s t = Unlock -> exists n, depth_of s t = S n.
Proof. destruct t as [w|c]; cbn; [destruct (wpc (ws s w)) | destruct (cpc (cs s c))]; cbn; try discriminate; eauto. Qed.
Lemma never_depth s t : needs_of s t = Never -> depth_of s t = 0%nat.
Proof. destruct t as [w|c]; cbn; [destruct (wpc (ws s w)) | destruct (cpc (cs s c))]; cbn; try discriminate; reflexivity. Qed.

Lemma drained_label l : cneeds l = Drained -> exists k, l = CJQJoin k.
Proof. destruct l; try discriminate; eauto. Qed.

Lemma mutex_holder_can_step s m : I_wf s -> I_jexit s -> qmutex s = Some m -> can_step s (TC m).
Proof.
  intros Hwf Hj Hm. specialize (Hj m). apply (met_can_step s (TC m) Hwf). cbn [needs_of].
  (* I_jexit places the holder at CJWait, CJRet or CJExit, whose next step needs nothing *)
  destruct (cpc (cs s m)); try congruence; exact I.
Qed.

Section Progress.
  Variable s : st.
  Hypothesis J : Inv2 s.
  Hypothesis P : I_lockpos s.

  Let I1 := j_inv1 _ J.

  Lemma mutex_case : qfree s = false -> mutex_holder_steps s.
  Proof.
    unfold qfree. destruct (qmutex s) as [m|] eqn:E; [|discriminate]. intros _.
    exists m. split; [exact E|]. apply mutex_holder_can_step; [apply (i_wf _ I1) | apply (i_jexit _ I1) | exact E].
  Qed.

  (** clear()'s join finds nothing to wait for: every worker has been joined and the queue drained *)
  Lemma clear_join_ready : ctl s = CJQJoin JClear -> unfinished s <= 0.
  Proof.
    intros Hc. destruct (j_stopjoin _ J) as (_ & S2 & S3).
    pose proof (i_unf _ I1) as Hu. unfold I_unf in Hu.
    rewrite (S3 ltac:(rewrite Hc; reflexivity)) in Hu.
    assert (Hh : count holding (ws s) (next_w s) = 0%nat).
    { apply count_all_false. intros i _. specialize (S2 ltac:(rewrite Hc; reflexivity) i).
      unfold alive in S2. unfold holding. destruct (wpc (ws s i)); try discriminate; reflexivity. }
    unfold clear_pending, ctl in *. rewrite Hc in Hu. cbn in Hu. lia.
  Qed.

  Lemma needs_progress t :
    needs_of s t <> Never -> (needs_of s t = Lock -> exists s', acquire s t = Some s') ->
    (needs_of s t = Drained -> unfinished s <= 0) -> can_step s t \/ mutex_holder_steps s.
  Proof.
    intros Hn Hl Hd. destruct (qfree s) eqn:Q; [left | right; exact (mutex_case Q)].
    apply (met_can_step s t (i_wf _ I1)). destruct (needs_of s t) eqn:N; cbn [met]; auto.
    (* Unlock: at these labels the thread holds the lock (I_lock) *)
    destruct (unlock_depth s t N) as [n Hdep]. rewrite <- (proj1 (I_lock_iff s) (i_lock _ I1)) in Hdep.
    exact (release_ok s t n (lockd_owner s t n Hdep)).
  Qed.

  (** the join of clear() is the controlling thread's *)
  Lemma clear_join_drained c : cpc (cs s c) = CJQJoin JClear -> unfinished s <= 0.
  Proof.
    intros Ec. assert (c = 0%nat) as -> by (apply (ctl_only s c (i_ctl _ I1)); rewrite Ec; reflexivity).
    exact (clear_join_ready Ec).
  Qed.

  Lemma owner_progress o d : lock s = Some (o, d) -> can_step s o \/ mutex_holder_steps s.
  Proof.
    intros El.
    assert (Hdep : (0 < depth_of s o)%nat).
    { rewrite <- (proj1 (I_lock_iff s) (i_lock _ I1)). unfold lockd, I_lockpos, normal in *. rewrite El, thr_eqb_refl in *. destruct d; [contradiction | lia]. }
    apply needs_progress.
    - intros N. rewrite (never_depth s o N) in Hdep. lia.
    - intros _. exact (acquire_ok_own s o d El).
    - (* the only Queue.join() under the lock is that of clear() *)
      destruct o as [w|c]; cbn [needs_of depth_of] in *; [destruct (wpc (ws s w)); discriminate|].
      intros N. destruct (drained_label _ N) as [[|] Ec]; [rewrite Ec in Hdep; cbn in Hdep; lia | exact (clear_join_drained c Ec)].
  Qed.

  Lemma acquire_progress t : (exists s', acquire s t = Some s') \/ lock_holder_steps s \/ mutex_holder_steps s.
  Proof.
    destruct (lock s) as [[o d]|] eqn:El; [|left; apply acquire_ok_free; exact El].
    destruct (thr_eqb o t) eqn:Eo.
    - apply thr_eqb_eq in Eo. subst o. left. eapply acquire_ok_own; exact El.
    - right. destruct (owner_progress o d El) as [Hs|Hm]; [left; exists o, d; split; [exact El | exact Hs] | right; exact Hm].
  Qed.

  Lemma thread_progress t : needs_of s t <> Never -> (needs_of s t = Drained /\ 0 < unfinished s) \/ progress s t.
  Proof.
    intros Hn.
    assert (Hd : (needs_of s t = Drained -> unfinished s <= 0) \/ (needs_of s t = Drained /\ 0 < unfinished s)).
    { destruct (Z_le_gt_dec (unfinished s) 0) as [Hu|Hu]; [left; intros _; exact Hu|].
      destruct (needs_of s t); try (left; discriminate). right. split; [reflexivity | lia]. }
    destruct Hd as [Hd|Hd]; [right | left; exact Hd].
    destruct (acquire_progress t) as [Ha|Hp]; [|right; exact Hp].
    destruct (needs_progress t Hn (fun _ => Ha) Hd) as [Hs|Hm]; [left; exact Hs | right; right; exact Hm].
  Qed.

  Theorem worker_progress w : alive (ws s w) = true -> wpc (ws s w) <> WNew -> progress s (TW w).
  Proof.
    intros Ha Hn. unfold alive in Ha.
    destruct (thread_progress (TW w)) as [[N _]|Hp]; [| |exact Hp]; cbn [needs_of] in *; destruct (wpc (ws s w)); try discriminate; congruence.
  Qed.

  (** every client call makes progress, except an untimed join() of the client's own while work is outstanding *)
  Theorem client_progress c :
    cpc (cs s c) <> CDone -> (cpc (cs s c) = CJQJoin JOp /\ 0 < unfinished s) \/ progress s (TC c).
  Proof.
    intros Hn. destruct (thread_progress (TC c)) as [[N Hu]|Hp]; [| |right; exact Hp]; cbn [needs_of] in *.
    - destruct (cpc (cs s c)); try discriminate; congruence.
    - (* Queue.join(): the join of clear() finds nothing unfinished *)
      destruct (drained_label _ N) as [[|] Ec]; [left; split; assumption | pose proof (clear_join_drained c Ec); lia].
  Qed.

  (** stop() is never blocked by the pool: at every instant of a stop() call the controlling thread can take a
      step, or the holder of the lock / mutex it waits for can *)
  Theorem stop_never_blocked : stop_region (ctl s) = true -> progress s (TC 0%nat).
  Proof.
    intros Hr. destruct (client_progress 0%nat) as [[E _]|Hp]; [intros E| |exact Hp];
      unfold ctl in Hr; rewrite E in Hr; discriminate Hr.
  Qed.

  (** a worker that has been created but not started: its creator is about to start it *)
  Lemma new_worker_creator w : wpc (ws s w) = WNew -> exists c, can_step s (TC c).
  Proof.
    intros Hn. destruct (j_threads _ J) as [_ T2]. destruct (T2 w Hn) as (c & k & Ec). exists c.
    apply (met_can_step s (TC c) (i_wf _ I1)). cbn [needs_of]. rewrite Ec. exact I.
  Qed.
End Progress.

Lemma progress_some_step s t : progress s t -> exists u f s', step s u f = Some s'.
Proof. intros [(f & s' & H)|[(o & d & _ & f & s' & H)|(m & _ & f & s' & H)]]; eauto. Qed.

(** an untimed join() on a running pool at rest is never stuck: while work is outstanding some thread can step *)
Theorem join_on_running_pool_not_stuck s :
  Inv2 s -> I_lockpos s -> I_growth s ->
  start_done s = true -> (forall c, ewin (cpc (cs s c)) = false) -> 0 < unfinished s ->
  exists u f s', step s u f = Some s'.
Proof.
  intros J P Hg Hsd Hall Hu. pose proof (j_inv1 _ J) as I1.
  (* a worker that still serves the queue steps, or its creator does, or the holder of what it waits for *)
  assert (Hw : forall w, serving (ws s w) = true -> exists u f s', step s u f = Some s').
  { intros w Hs. destruct (wpc (ws s w)) eqn:Ew.
    2:{ destruct (new_worker_creator s J w Ew) as (c & f & s' & H). eauto. }
    all: apply (progress_some_step s (TW w)), (worker_progress s J P); unfold alive, serving in *;
      rewrite Ew in *; congruence. }
  pose proof (i_unf _ I1) as Hunf. unfold I_unf in Hunf.
  destruct (j_flag _ J) as (_ & _ & _ & F4 & _). destruct (F4 Hsd) as (Hst & _ & _).
  rewrite (clear_pending_running s (j_flag _ J) Hst) in Hunf.
  (* some worker serves the queue: one that holds an item, or, if an item is queued, the one the growth claim promises *)
  pose proof (holding_retiring_serving (ws s) (next_w s)) as Hhs. pose proof (i_nb _ I1) as Hnb. unfold I_nb in Hnb.
  destruct (growth_at_rest s J Hg Hsd Hall) as [_ G].
  destruct (count_pos_witness serving (ws s) (next_w s)) as (w & _ & Hw2); [|exact (Hw w Hw2)].
  destruct (q s) as [|it r]; [cbn [length] in Hunf; lia | specialize (G ltac:(discriminate)); lia].
Qed.
