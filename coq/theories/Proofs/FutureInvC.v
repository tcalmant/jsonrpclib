(** * FutureInvC — the ghost linearisation (order of lock acquisitions) against the real fields *)
From Coq Require Import List Bool Arith.
From JR Require Import Future FutureInv.
Import ListNotations.

Definition is_store_cb (p : rpc) : bool := match p with R_store_cb => true | _ => false end.
(* past R_read_completed *)
Definition r_read (p : rpc) : bool := match p with R_unlock | R_notify | R_end => true | _ => false end.
(* registered after completion: the second disjunct of [owed] (Model/Future.v) *)
Definition inpost (s : st) (i : nat) : bool := existsb (Nat.eqb i) (hpost s).

Lemma inpost_cons : forall s i j l, hpost s = j :: l -> inpost s i = Nat.eqb i j || existsb (Nat.eqb i) l.
Proof. intros s i j l H; unfold inpost; rewrite H; reflexivity. Qed.

Section Inv.
Variable c : cfg.

(* G0: hpost is empty until completion.
   G1: before completion the head of hpre is the stored callback, except while the registrar that just took
   the lock has not stored its own yet; G2: so it is from completion until execute() reads it;
   G3: what execute() read is the head of hpre (frozen at completion).
   G4: a registrar in hpost has started; G5, G6: in hpost <-> it reads, or has read, [completed] = true;
   G7: while a registrar that took the lock before completion is inside its region, completion has not happened *)
Definition G0 s := hdone s = false -> hpost s = [].
Definition G1 s := hdone s = false ->
  hd1 (hpre s) = match lock s with Some (TR i) => if is_store_cb (rp s i) then Some i else cb s | _ => cb s end.
Definition G2 s := hdone s = true -> x_ge_rcb (xp s) = false -> cb s = hd1 (hpre s).
Definition G3 s := x_ge_rcb (xp s) = true -> xcb s = hd1 (hpre s).
Definition G4 s := forall i, inpost s i = true -> rp s i <> R_lock.
Definition G5 s := forall i, inpost s i = true -> r_read (rp s i) = true -> rcomp s i = true.
Definition G6 s := forall i, inpost s i = false -> rcomp s i = false.
Definition G7 s := forall i, inpost s i = false -> r_in (rp s i) = true -> hdone s = false.
Definition InvG s := G0 s /\ G1 s /\ G2 s /\ G3 s /\ G4 s /\ G5 s /\ G6 s /\ G7 s.

Ltac pcsG := cbn [is_store_cb r_read existsb] in *; pcs.

Lemma G_x : forall s s', InvA c s -> InvG s -> step_x c s = Some s' -> InvG s'.
Proof.
  intros s s' A (G0' & G1' & G2' & G3' & G4' & G5' & G6' & G7') H.
  pose proof (cs_free c s A) as FR. destruct A as (_ & _ & _ & _ & _ & _ & _ & D5' & _).
  unfold InvG, G0, G1, G2, G3, G4, G5, G6, G7, inpost, D5 in *.
  unfold step_x in H. destruct (xp s) eqn:Ex; try discriminate H; unstep H; try rewrite notify_writes.
  all: conj; try assumption; routine_with pcsG.
  - (* x_lock, G2: until now the head of hpre was the stored callback (G1, the lock being free) *)
    intros _ _; simp. symmetry. apply G1'. exact D5'.
  - (* x_lock, G7: the lock was free, no registrar was inside its region *)
    intros i _ Hi; simp. destruct FR as (_ & Hr); [reflexivity|]. rewrite Hr in Hi. discriminate Hi.
Qed.

Lemma G_r : forall s k s', InvA c s -> InvG s -> step_r c k s = Some s' -> InvG s'.
Proof.
  intros s k s' A (G0' & G1' & G2' & G3' & G4' & G5' & G6' & G7') H.
  pose proof (cs_r c s k A) as CS. destruct A as (_ & _ & _ & _ & _ & _ & D4' & D5' & _).
  unfold InvG, G0, G1, G2, G3, G4, G5, G6, G7, inpost, D4, D5 in *.
  (* what the invariant says of k itself (K5 serves [routine_with] only) *)
  pose proof (G5' k) as K5. pose proof (G7' k) as K7.
  unfold step_r in H. destruct (rp s k) eqn:Ek; try discriminate H.
  (* inside its region k owns the lock *)
  2-5: destruct CS as (Hl & Hx & Hr); [reflexivity|]; rewrite Hl in *.
  all: unstep H.
  (* taking the lock, k's registration falls before or after completion *)
  1: destruct (hdone s) eqn:Hd.
  all: conj; try assumption; routine_with pcsG.
  - (* r_lock before completion, G3: the executor has not read the callback yet (D5) *)
    intros Hx; simp. rewrite (rcb_lock _ Hx) in D5'. discriminate D5'.
  - (* r_store_cb, G2: the executor, past x_lock (D5) and not past x_read_cb, would be inside its region *)
    intros Hd Hx'; simp. rewrite (lock_in (xp s)) in Hx by congruence. discriminate Hx.
  - (* r_read_completed, G5: k is in hpost, so the executor has taken the lock (G0, D5); it has released
       it, k holding it now: [completed] is set (D4) *)
    intros i Hi Hr'; simp; who; [|exact (G5' i Hi Hr')].
    rewrite D4'. apply lock_comp; [|exact Hx]. rewrite <- D5'. destruct (hdone s); [reflexivity|].
    rewrite G0' in Hi by reflexivity. discriminate Hi.
  - (* r_read_completed, G6: k is not in hpost: the executor has not taken the lock (G7 at k, D5) *)
    intros i Hi; simp; who; [|exact (G6' i Hi)].
    rewrite D4'. destruct (x_ge_comp (xp s)) eqn:E; [|reflexivity].
    apply comp_lock in E. rewrite <- D5', (K7 Hi eq_refl) in E. discriminate E.
  - (* r_unlock, G4 *)
    intros i Hi; simp; who; [destruct (rcomp s k); discriminate | exact (G4' i Hi)].
  - (* r_notify, G1: k is outside its region: whoever holds the lock, k's pc is not consulted or not R_store_cb *)
    intros Hd; simp. rewrite (G1' Hd). destruct (lock s) as [[|i|j]|]; try reflexivity. who; rw; reflexivity.
Qed.
End Inv.
