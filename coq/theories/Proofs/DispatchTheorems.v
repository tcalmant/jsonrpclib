(** * DispatchTheorems — facts about the dispatcher as a whole, proved from the equations of
    DispatchProofs.v: a reply that is produced is well-formed and, when the results of the callables are
    JSON-representable, one is produced (C02); what one execution of the dispatch target leaves in the
    log (C04); the form of a reply (C13); and how the client reads an error reply of the dispatcher (C05). *)
From JR Require Import Client ClientProofs Dispatch DispatchProofs.

Section Theorems.
  Variable body : cid -> val -> outcome.
  Variable sigs : cid -> signature.

  Notation answer_entry := (answer_entry body sigs).
  Notation batch := (batch body sigs).
  Notation marshaled_dispatch := (marshaled_dispatch body sigs).
  Notation run_target := (run_target body sigs).

  Theorem marshaled_wf srvf srv dm p r log :
    marshaled_dispatch srvf srv dm p = Ok (r, log) -> wf_reply r = true.
  Proof.
    destruct p as [| |v]; [rewrite marshaled_empty|rewrite marshaled_error|];
      try (intros H; inversion H; apply wf_err_obj).
    destruct (truthy v) eqn:Ht.
    2:{ rewrite marshaled_falsy by assumption. intros H; inversion H. apply wf_err_obj. }
    destruct (is_list v) eqn:Hl.
    - destruct v; try discriminate Hl. rewrite marshaled_batch by (intros ->; discriminate).
      pose proof (batch_wf body sigs srvf srv dm l) as W.
      destruct (forallb dumpable _); intros H; inversion H.
      now destruct (fst (batch srvf srv dm l)).
    - rewrite marshaled_single by assumption.
      destruct (answer_entry srvf srv dm v) as [[o|] l] eqn:E; cbn; [|intros H; now inversion H].
      destruct (dumpable o); intros H; inversion H. eapply answer_wf; eauto.
  Qed.

  Theorem marshaled_total srvf srv dm p :
    results_dumpable body (sv_jsonclass srv) ->
    exists r log, marshaled_dispatch srvf srv dm p = Ok (r, log).
  Proof.
    intros R. destruct p as [| |v]; [rewrite marshaled_empty|rewrite marshaled_error|]; eauto.
    destruct (truthy v) eqn:Ht.
    2:{ rewrite marshaled_falsy by assumption. eauto. }
    destruct (is_list v) eqn:Hl.
    - destruct v; try discriminate Hl. rewrite marshaled_batch by (intros ->; discriminate).
      rewrite (batch_dumpable body sigs srvf srv dm l R). eauto.
    - rewrite marshaled_single by assumption.
      destruct (answer_entry srvf srv dm v) as [[o|] l] eqn:E; cbn; [|eauto].
      rewrite (answer_dumpable R E). eauto.
  Qed.

  Lemma dispatch_resolved_log inst s p :
    snd (dispatch_resolved body sigs inst s p) = []
    \/ exists c, snd (dispatch_resolved body sigs inst s p) = [EvCall c p].
  Proof.
    unfold dispatch_resolved, unknown_method.
    destruct (resolve_segs _ _) as [[c| |]|]; try (left; reflexivity).
    rewrite call_func_log. destruct (call_binds (sigs c) p); eauto.
  Qed.

  (** the log is empty; or the function's or the dispatch function's call; or a declining instance-level
      _dispatch followed by the resolved function *)
  Theorem target_log_shape reg dm s p :
    let log := snd (run_target reg dm s p) in
    log = [] \/ (exists c a, log = [EvCall c a])
    \/ (exists d c, log = [EvCall d (dispatch_args s p); EvCall c p]).
  Proof.
    destruct dm as [d|]; cbn [Dispatch.run_target].
    { right; left. rewrite call_dispatcher_log. eauto. }
    rewrite dispatch_eq. destruct (lookup s (r_funcs reg)) as [c|].
    { rewrite call_func_log. destruct (call_binds (sigs c) p); eauto. }
    destruct (r_instance reg) as [inst|]; [|now left].
    pose proof (dispatch_resolved_log inst s p) as R.
    destruct (i_dispatch inst) as [d|]; [|destruct R as [->|[c ->]]; eauto].
    destruct (declines _); cbn [snd].
    - destruct R as [->|[c ->]]; [right; left|right; right]; eauto.
    - right; left. rewrite call_dispatcher_log. eauto.
  Qed.

  Theorem reply_form_valid srvf srv dm e m o log :
    e = VDict m -> wellformed_entry e = true ->
    answer_entry srvf srv dm e = (Some o, log) ->
    reply_form o = Some (if dhas m "jsonrpc" then srvf else V1).
  Proof.
    intros -> Hw H. pose proof (answer_entry_inv body sigs srvf srv dm (VDict m)) as A. rewrite H in A.
    destruct A as (_ & r & -> & _). rewrite reply_of_form. unfold entry_form, request_form. rewrite Hw.
    now destruct (dhas m "jsonrpc"), srvf.
  Qed.

  Theorem reply_form_invalid srvf srv dm e o log :
    wellformed_entry e = false ->
    answer_entry srvf srv dm e = (Some o, log) -> reply_form o = Some srvf.
  Proof.
    intros Hw H. destruct (answer_invalid body sigs srvf srv dm e Hw) as (msg & E).
    rewrite E in H. inversion H. apply reply_form_err.
  Qed.

End Theorems.

(** C05, client side: composition with C06 *)

Theorem check_err_obj f i c msg :
  -32700 <= c <= -32000 ->
  check_for_errors (err_obj f i c msg) = Raise (EProtocol (VTuple [VInt c; VStr msg])).
Proof.
  intros Hc. apply in_reserved_range_int in Hc.
  destruct f; apply (predefined_range _ [(VStr "code", VInt c); (VStr "message", VStr msg)]); auto.
Qed.
