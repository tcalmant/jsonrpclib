(** Where an accepted task is: one ledger per task number (I_task) and one preservation lemma (P_task); I_once,
    I_fresh and I_place are read off the ledger (with I_done: the worker that has completed a body has completed the
    future). *)
From JR Require Import PoolInvDefs PoolInvA.

Definition I_done (s : st) : Prop :=
  forall w t, wpc (ws s w) = WTaskDone -> held_is t (ws s w) = true -> tdone s t = true.

Definition body_of (t : nat) (x : wst) : bool := match wpc x with WBody => held_is t x | _ => false end.

(** The ledger of task [t]: once its number has been given out it is at exactly one place (queued, taken and not begun,
    begun, dropped by clear()), before that nowhere; and a task that has begun is in its body or its future is done. *)
Definition I_task (s : st) : Prop := forall t,
  let places := (qocc t (q s) + count (holds_pre t) (ws s) (next_w s) + tstarts s t + b2n (tdropped s t))%nat in
  ((t < next_task s)%nat /\ places = 1%nat \/ (next_task s <= t)%nat /\ places = 0%nat) /\
  tstarts s t = (count (body_of t) (ws s) (next_w s) + b2n (tdone s t))%nat.

Lemma P_task {s t f s'} : I_created s -> I_task s -> step s t f = Some s' -> I_task s'.
Proof.
  intros Hcr Ht H t'. destruct (Ht t') as [A B]. cbv zeta in *.
  destruct (step_Step H) as [w l h cl s1 Ew HS | c l p jc s1 Ec HS].
  - (* a worker moves: the two counts follow its record (E1, E2), which matters at WGet, WBegin and WBody *)
    pose proof (WStep_count (holds_pre t') Hcr Ew HS) as E1.
    pose proof (WStep_count (body_of t') Hcr Ew HS) as E2.
    destruct HS; simp; rewrite upd_same in E1, E2; cbn [holds_pre body_of wpc b2n] in E1, E2; unfold held_is in E1, E2; cbn [wheld] in E1, E2.
    (* elsewhere the mover is in each class as before: both counts stay, and so does the ledger *)
    all: try solve [apply Nat.add_cancel_r in E1, E2; rewrite E1, E2; exact (conj A B)].
    + (* WGet takes a task: from the queue to the hand *) rewrite Hq in A. cbn [qocc item_eqb] in A. split; lia.
    + (* WGet takes a sentinel *) rewrite Hq in A. cbn [qocc item_eqb b2n] in A. split; lia.
    + (* WBegin: from the hand to the started, and into the body *)
      subst h. destruct (Nat.eqb_spec t t') as [<-|Hne]; [rewrite !upd_same | rewrite !upd_other by congruence]; cbn [b2n] in *; split; lia.
    + (* WBody: out of the body, the future done; it was not, since the task began once *)
      subst h. destruct (Nat.eqb_spec t t') as [<-|Hne]; [rewrite upd_same | rewrite upd_other by congruence]; cbn [b2n] in *; [|split; lia].
      destruct (tdone s t); cbn [b2n] in *; split; lia.
  - (* a client moves: the workers it creates or starts hold nothing; it does not write the history of the bodies *)
    rewrite (CStep_count (holds_pre t') Hcr Ec HS eq_refl eq_refl), (CStep_count (body_of t') Hcr Ec HS eq_refl eq_refl).
    destruct (CStep_frame HS) as (-> & -> & _).
    destruct HS; simp; try (split; assumption); (split; [|exact B]).
    + (* CEPut: the number given out was nowhere; the others are where they were *)
      rewrite qocc_app. cbn [qocc item_eqb]. destruct (Nat.eqb_spec (next_task s) t'); cbn [b2n]; lia.
    + (* CSPPut *) rewrite qocc_app. cbn [qocc item_eqb b2n]. lia.
    + (* CCLGet drops a sentinel *) rewrite Hq in A. cbn [qocc item_eqb b2n] in A. lia.
    + (* CCLGet drops a task: from the queue to the dropped; it was not dropped before, being queued *)
      rewrite Hq in A. cbn [qocc item_eqb] in A.
      destruct (Nat.eqb_spec t t') as [->|Hne]; [rewrite upd_same | rewrite upd_other by congruence]; cbn [b2n] in *; [|lia].
      destruct (tdropped s t'); cbn [b2n] in *; lia.
Qed.

Lemma task_init mx mn progs : I_task (init mx mn progs).
Proof. intros t. cbn. split; [right; lia | reflexivity]. Qed.

Lemma tdone_step {s th s' u} : Step s th s' -> tdone s u = true -> tdone s' u = true.
Proof.
  intros [w l h cl s1 Ew HS | c l p jc s1 Ec HS] Hd.
  - destruct HS; simp; auto. destruct (Nat.eq_dec u t) as [->|?]; [apply upd_same | rewrite upd_other by assumption; exact Hd].
  - destruct (CStep_frame HS) as (_ & -> & _). exact Hd.
Qed.

Lemma P_done {s t f s'} : I_created s -> I_done s -> step s t f = Some s' -> I_done s'.
Proof.
  intros Hcr Hd H w' t' Hpc Hh. apply step_Step in H. destruct (Step_others Hcr H) as [_ Ho].
  destruct (thr_eq_dec t (TW w')) as [->|Hne].
  2:{ (* another thread moves: w' stays (a worker just created or started is not at WTaskDone) *)
      destruct (Ho w' Hne) as [E|[[E _]|[E _]]]; rewrite E in Hpc, Hh; try discriminate Hpc.
      exact (tdone_step H (Hd w' t' Hpc Hh)). }
  (* w' moves: it comes to WTaskDone from WBody, completing the future of the task it holds *)
  inversion H as [w l h cl s1 Ew HS | ]; subst.
  destruct HS; simp; rewrite upd_same in Hpc, Hh; try discriminate Hpc.
  subst h. cbn [held_is wheld] in Hh. apply Nat.eqb_eq in Hh. subst t'. apply upd_same.
Qed.

Lemma task_once s : I_task s -> I_once s.
Proof. intros Ht t. destruct (Ht t) as [A _]. lia. Qed.

Lemma task_ran_once s t : I_task s -> tdone s t = true -> tstarts s t = 1%nat.
Proof. intros Ht Hd. destruct (Ht t) as [A B]. rewrite Hd in B. cbn [b2n] in B. lia. Qed.

Lemma holds_any_cases t x :
  holds_any t x = true -> holds_pre t x = true \/ body_of t x = true \/ wpc x = WTaskDone /\ held_is t x = true.
Proof. unfold holds_any, holds_pre, body_of. destruct (wpc x); auto; discriminate. Qed.

Lemma task_place s : I_task s -> I_place s.
Proof.
  intros Ht t Hlt. destruct (Ht t) as [A B].
  pose proof (count_le (holds_pre t) (holds_any t) (ws s) (next_w s) (fun i _ => holds_pre_any t _)).
  assert (count (body_of t) (ws s) (next_w s) <= count (holds_any t) (ws s) (next_w s))%nat.
  { apply count_le. intros i _. unfold body_of, holds_any. destruct (wpc (ws s i)); auto; discriminate. }
  unfold settled. destruct (tdone s t), (tdropped s t); cbn [orb b2n] in *; lia.
Qed.

Lemma task_fresh s : I_done s -> I_task s -> I_fresh s.
Proof.
  intros Hd Ht t Hge. destruct (Ht t) as [A B].
  split; [lia | split; [|lia]]. apply count_all_false. intros i Hi.
  destruct (holds_any t (ws s i)) eqn:E; [exfalso | reflexivity].
  destruct (holds_any_cases _ _ E) as [E1|[E1|[Epc Eh]]].
  - pose proof (count_pos _ _ _ i Hi E1). lia.
  - pose proof (count_pos _ _ _ i Hi E1). lia.
  - rewrite (Hd i t Epc Eh) in B. cbn [b2n] in B. lia.
Qed.
