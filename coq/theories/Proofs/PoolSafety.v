(** Inv1 gathers the invariants of PoolInvA-D.  It holds initially and is preserved given the ledger I_task (PoolInvC),
    off which its fields I_once, I_fresh and I_place are read after the step.  The ledger is not a field: Inv2, whose
    first field is Inv1, is the record that C11_restart_fresh is stated with; Inv of PoolReach.v adds I_task and is inductive. *)
From JR Require Import PoolInvDefs PoolInvA PoolInvB PoolInvC PoolInvD.

Record Inv1 (s : st) : Prop := {
  i_ctl : I_ctl s; i_created : I_created s; i_cfg : I_cfg s; i_lock : I_lock s; i_wf : I_wf s;
  i_nb : I_nb s; i_bound : I_bound s; i_unf : I_unf s; i_once : I_once s; i_fresh : I_fresh s;
  i_done : I_done s; i_place : I_place s; i_jexit : I_jexit s; i_jcall : I_jcall s; i_mon : I_mon s }.

Definition valid_cfg (mx mn : Z) : Prop := 1 <= mx /\ 0 <= mn <= mx.

Lemma Inv1_init mx mn progs : valid_cfg mx mn -> Inv1 (init mx mn progs).
Proof.
  intros Hv. pose proof (init_entry mx mn progs) as He.
  constructor.
  - intros c Hc. exact (entry_ctl c _ (He c) Hc).
  - split; [reflexivity|]. intros c k w Hc. specialize (He c). rewrite Hc in He. inversion He.
  - exact Hv.
  - split; [reflexivity|]. intros c. exact (eq_sym (entry_cdepth c _ (He c))).
  - intros w. reflexivity.
  - reflexivity.
  - destruct Hv. split; [cbn; lia|]. intros c k Hc. specialize (He c). rewrite Hc in He. inversion He.
  - unfold I_unf, clear_pending. destruct (He 0%nat); reflexivity.
  - intros t. cbn. lia.
  - intros t _. auto.
  - intros w t Hpc. discriminate.
  - intros t Ht. cbn in Ht. lia.
  - intros c. destruct (He c); discriminate.
  - intros c. cbn [init cs]. destruct (next_call c (progs c)). cbn. lia.
  - split; reflexivity.
Qed.

Lemma Inv1_step {s t f s'} : I_task s -> Inv1 s -> step s t f = Some s' -> Inv1 s'.
Proof.
  intros Ht [Hctl Hcr Hcfg Hlk Hwf Hnb Hbd Hunf _ _ Hdn Hpl Hje Hjc Hm] H.
  pose proof (P_task Hcr Ht H) as Ht'. pose proof (P_done Hcr Hdn H) as Hdn'. constructor.
  - exact (P_ctl Hctl H).
  - exact (P_created Hlk Hcr H).
  - destruct (cfg_step H) as [Emx Emn]. unfold I_cfg. rewrite Emx, Emn. exact Hcfg.
  - exact (P_lock Hcr Hlk H).
  - exact (P_wf Hcr Hwf H).
  - exact (P_nb Hcr Hwf Hnb H).
  - exact (P_bound Hlk Hbd H).
  - exact (P_unf Hctl Hcr Hunf H).
  - exact (task_once _ Ht').
  - exact (task_fresh _ Hdn' Ht').
  - exact Hdn'.
  - exact (task_place _ Ht').
  - exact (P_jexit Hje H).
  - exact (P_jcall Hjc H).
  - exact (P_mon Hunf Hpl Hje Hjc Hm H).
Qed.
