(** * C13.  Serving and copy() change a heap only by writes at or above its allocation pointer ([ext]), which
    complete Configs below it do not see ([ext_cfg_ok], [keep]); over such a heap the heap-threading dispatcher
    returns what the pure one returns ([yields]).  The line-level threads are handled by rely/guarantee: [guar]
    is what any step may do to the heap, [thread_ok] what a thread knows at each line and keeps under [guar]. *)
From JR Require Import Config.
From JR Require Sched.
From Coq Require Import Lia.
Local Open Scope nat_scope.

Lemma lookup_set {A} l l0 (a : A) m :
  lookup_loc l0 (set_loc l a m) = if Nat.eqb l0 l then Some a else lookup_loc l0 m.
Proof.
  induction m as [|[l' a'] r IH]; cbn; [reflexivity|].
  destruct (Nat.eqb l l') eqn:E; cbn; [|rewrite IH].
  - apply Nat.eqb_eq in E. subst l'. now destruct (Nat.eqb l0 l).
  - destruct (Nat.eqb l0 l) eqn:E0; [|reflexivity]. apply Nat.eqb_eq in E0. subst l0. now rewrite E.
Qed.

Lemma lookup_loc_In {A} l (m : list (loc * A)) a : lookup_loc l m = Some a -> In (l, a) m.
Proof.
  induction m as [|[l' a'] r IH]; cbn; [discriminate|].
  destruct (Nat.eqb l l') eqn:E; [|auto].
  apply Nat.eqb_eq in E. subst. intros H. inversion H. auto.
Qed.

Lemma cfgs_write_cfg h l r l0 :
  lookup_loc l0 (h_cfgs (do_write h (WCfg l r))) = if Nat.eqb l0 l then Some r else lookup_loc l0 (h_cfgs h).
Proof. apply lookup_set. Qed.

Lemma tabs_write_tab h l t l0 :
  lookup_loc l0 (h_tabs (do_write h (WTab l t))) = if Nat.eqb l0 l then Some t else lookup_loc l0 (h_tabs h).
Proof. apply lookup_set. Qed.

Lemma tabs_write_cfg h l r : h_tabs (do_write h (WCfg l r)) = h_tabs h.
Proof. reflexivity. Qed.

Lemma cfgs_write_tab h l t : h_cfgs (do_write h (WTab l t)) = h_cfgs h.
Proof. reflexivity. Qed.

Lemma next_write h w : h_next (do_write h w) = Nat.max (h_next h) (S (wloc w)).
Proof. destruct w; reflexivity. Qed.

Lemma write_other h w l : l <> wloc w ->
  lookup_loc l (h_cfgs (do_write h w)) = lookup_loc l (h_cfgs h)
  /\ lookup_loc l (h_tabs (do_write h w)) = lookup_loc l (h_tabs h).
Proof.
  intros N. apply Nat.eqb_neq in N.
  destruct w; cbn [wloc] in N; cbn [do_write h_cfgs h_tabs]; rewrite lookup_set, N; auto.
Qed.

Definition writes (ws : list write) (h : heap) : heap := fold_left do_write ws h.

Definition above (n : loc) (ws : list write) : Prop := Forall (fun w => n <= wloc w) ws.

Definition ext (n : loc) (h h' : heap) : Prop := exists ws, h' = writes ws h /\ above n ws.

Lemma writes_app a b h : writes (a ++ b) h = writes b (writes a h).
Proof. apply fold_left_app. Qed.

Lemma writes_next_mono ws : forall h, h_next h <= h_next (writes ws h).
Proof.
  unfold writes. induction ws as [|w r IH]; intros h; cbn [fold_left]; [lia|].
  specialize (IH (do_write h w)). rewrite next_write in IH. lia.
Qed.

Lemma writes_log ws : forall h, h_log (writes ws h) = (rev ws ++ h_log h)%list.
Proof.
  unfold writes. induction ws as [|w r IH]; intros h; cbn [fold_left rev]; [reflexivity|].
  rewrite IH. rewrite <- app_assoc. destruct w; reflexivity.
Qed.

Lemma above_weaken n n' ws : n' <= n -> above n ws -> above n' ws.
Proof. intros L. apply Forall_impl. intros w. lia. Qed.

Lemma above_firstn n k ws : above n ws -> above n (firstn k ws).
Proof.
  intros H. revert k. induction H as [|w r Hw _ IH]; intros [|k]; cbn [firstn]; constructor; auto.
  apply IH.
Qed.

Lemma ext_refl n h : ext n h h.
Proof. exists []. split; [reflexivity|constructor]. Qed.

Lemma ext_trans n h1 h2 h3 : ext n h1 h2 -> ext n h2 h3 -> ext n h1 h3.
Proof.
  intros (a & -> & Ha) (b & -> & Hb). exists (a ++ b)%list. split.
  - now rewrite writes_app.
  - now apply Forall_app.
Qed.

Lemma ext_weaken n n' h h' : n' <= n -> ext n h h' -> ext n' h h'.
Proof. intros L (ws & -> & H). exists ws. split; [reflexivity|]. eapply above_weaken; eauto. Qed.

Lemma ext_next {n h h'} : ext n h h' -> h_next h <= h_next h'.
Proof. intros (ws & -> & _). apply writes_next_mono. Qed.

Lemma ext_write n h w : n <= wloc w -> ext n h (do_write h w).
Proof. intros H. exists [w]. split; [reflexivity|]. constructor; [exact H|constructor]. Qed.

Lemma ext_lookup {n h h' l} : ext n h h' -> l < n ->
  lookup_loc l (h_cfgs h') = lookup_loc l (h_cfgs h) /\ lookup_loc l (h_tabs h') = lookup_loc l (h_tabs h).
Proof.
  intros (ws & -> & Ab) L. unfold writes. revert h.
  induction Ab as [|w r Hw _ IH]; intros h; cbn [fold_left]; [auto|].
  destruct (IH (do_write h w)) as [-> ->]. apply write_other. lia.
Qed.

(** the Config at [c] is complete — its record and both tables are there — exactly when [snapshot] succeeds *)
Lemma snapshot_iff h c r cl hd : snapshot h c = Ok (mkSnap r cl hd) <->
  lookup_loc c (h_cfgs h) = Some r
  /\ lookup_loc (c_classes r) (h_tabs h) = Some cl /\ lookup_loc (c_handlers r) (h_tabs h) = Some hd.
Proof.
  unfold snapshot, get_cfg, get_tab. split.
  - destruct (lookup_loc c (h_cfgs h)) as [r0|]; cbn [bind]; [|discriminate].
    destruct (lookup_loc (c_classes r0) (h_tabs h)) as [cl0|] eqn:E1; cbn [bind]; [|discriminate].
    destruct (lookup_loc (c_handlers r0) (h_tabs h)) as [hd0|] eqn:E2; cbn [bind]; [|discriminate].
    intros [= -> -> ->]. auto.
  - intros (-> & E1 & E2). cbn [bind]. now rewrite E1, E2.
Qed.

Lemma cfg_ok_iff h c : cfg_ok h c = true <->
  exists r cl hd, snapshot h c = Ok (mkSnap r cl hd)
                  /\ c < h_next h /\ c_classes r < h_next h /\ c_handlers r < h_next h.
Proof.
  unfold cfg_ok. split.
  - destruct (lookup_loc c (h_cfgs h)) as [r|] eqn:E; [|discriminate].
    destruct (lookup_loc (c_classes r) (h_tabs h)) as [cl|] eqn:E1;
      [destruct (lookup_loc (c_handlers r) (h_tabs h)) as [hd|] eqn:E2|];
      rewrite ?andb_false_r; try discriminate.
    intros H. rewrite andb_true_r in H.
    apply andb_true_iff in H as [H H3]. apply andb_true_iff in H as [H1 H2].
    apply Nat.ltb_lt in H1, H2, H3. exists r, cl, hd. split; [now apply snapshot_iff|auto].
  - intros (r & cl & hd & Sn & L & L1 & L2). apply snapshot_iff in Sn as (E & E1 & E2). rewrite E, E1, E2.
    apply Nat.ltb_lt in L, L1, L2. now rewrite L, L1, L2.
Qed.

Lemma get_cfg_eq {h c r} : lookup_loc c (h_cfgs h) = Some r -> get_cfg h c = Ok r.
Proof. intros E. unfold get_cfg. now rewrite E. Qed.

Definition objs (c : loc) (r : cfgrec) : list loc := [c; c_classes r; c_handlers r].

Lemma writes_miss ws : forall h c r cl hd, snapshot h c = Ok (mkSnap r cl hd) ->
  Forall (fun w => ~ In (wloc w) (objs c r)) ws -> snapshot (writes ws h) c = Ok (mkSnap r cl hd).
Proof.
  unfold writes. induction ws as [|w ws IH]; intros h c r cl hd Sn F; cbn [fold_left]; [exact Sn|].
  inversion F as [|? ? N F']; subst. cbn [objs In] in N. apply IH; [|exact F'].
  apply snapshot_iff in Sn as (E & E1 & E2). apply snapshot_iff.
  destruct (write_other h w c) as [-> _]; [tauto|].
  destruct (write_other h w (c_classes r)) as [_ ->]; [tauto|].
  destruct (write_other h w (c_handlers r)) as [_ ->]; [tauto|]. auto.
Qed.

Lemma ext_cfg_ok {h h' c} : cfg_ok h c = true -> ext (h_next h) h h' ->
  cfg_ok h' c = true /\ get_cfg h' c = get_cfg h c /\ snapshot h' c = snapshot h c.
Proof.
  intros Hok (ws & -> & Ab). apply cfg_ok_iff in Hok as (r & cl & hd & Sn & L).
  (* a write at or above the allocation pointer goes to none of the three objects, which lie below it *)
  assert (Sn' : snapshot (writes ws h) c = Ok (mkSnap r cl hd)).
  { apply writes_miss; [exact Sn|]. eapply Forall_impl; [|exact Ab]. cbn. lia. }
  pose proof (writes_next_mono ws h) as Nx. split; [|split].
  - apply cfg_ok_iff. exists r, cl, hd. split; [exact Sn'|lia].
  - apply snapshot_iff in Sn as (E & _), Sn' as (E' & _).
    now rewrite (get_cfg_eq E), (get_cfg_eq E').
  - congruence.
Qed.

Lemma keep h h' c f jc :
  cfg_ok h c = true -> read_form h c = Ok f -> read_jsonclass h c = Ok jc -> ext (h_next h) h h' ->
  cfg_ok h' c = true /\ read_form h' c = Ok f /\ read_jsonclass h' c = Ok jc.
Proof.
  intros Hok Hf Hj Ex. destruct (ext_cfg_ok Hok Ex) as (Hok' & G & _).
  unfold read_form, read_jsonclass in *. rewrite G. auto.
Qed.

(** the form in which the theorems report an extension: the writes, the log that records them, and
    the snapshots of complete configurations after every prefix of them *)
Lemma ext_log {h h' c d} : cfg_ok h c = true -> cfg_ok h d = true -> ext (h_next h) h h' ->
  exists ws, h' = writes ws h /\ h_log h' = (rev ws ++ h_log h)%list /\ above (h_next h) ws
    /\ forall k, snapshot (writes (firstn k ws) h) c = snapshot h c
                 /\ snapshot (writes (firstn k ws) h) d = snapshot h d.
Proof.
  intros Hc Hd (ws & -> & Ab). exists ws. split; [reflexivity|]. split; [apply writes_log|].
  split; [exact Ab|]. intros k.
  assert (E : ext (h_next h) h (writes (firstn k ws) h)).
  { exists (firstn k ws). split; [reflexivity|now apply above_firstn]. }
  split; now apply ext_cfg_ok.
Qed.

(** the record of the copy, its tables at [n] and [S n] *)
Definition copy_rec (r : cfgrec) (n : loc) : cfgrec :=
  mkCfg (c_version r) (c_content_type r)
        (match c_user_agent r with VNone => default_user_agent | u => u end)
        (c_use_jsonclass r) (c_serialize_method r) (c_ignore_attribute r) n (S n).

(** copy() of a complete configuration: three allocations *)
Lemma config_copy_ok h c r cl hd : snapshot h c = Ok (mkSnap r cl hd) ->
  let n := h_next h in
  exists h1, config_copy h c = Ok (h1, S (S n)) /\ ext n h h1 /\ h_next h1 = S (S (S n))
    /\ snapshot h1 (S (S n)) = Ok (mkSnap (copy_rec r n) cl hd).
Proof.
  intros Sn n. apply snapshot_iff in Sn as (E & E1 & E2).
  exists (writes [WTab n cl; WTab (S n) hd; WCfg (S (S n)) (copy_rec r n)] h). split; [|split].
  - unfold config_copy, get_cfg, get_tab. rewrite E. cbn [bind]. rewrite E1, E2. cbn [bind].
    unfold alloc_tab, alloc_cfg. cbn [writes fold_left]. rewrite !next_write. cbn [wloc]. fold n.
    replace (Nat.max n (S n)) with (S n) by lia.
    replace (Nat.max (S n) (S (S n))) with (S (S n)) by lia. reflexivity.
  - eexists. split; [reflexivity|]. repeat constructor.
  - cbn [writes fold_left]. split; [rewrite !next_write; cbn [wloc]; lia|].
    apply snapshot_iff. cbn [copy_rec c_classes c_handlers].
    rewrite cfgs_write_cfg, tabs_write_cfg, !tabs_write_tab, !Nat.eqb_refl.
    replace (Nat.eqb n (S n)) with false by (symmetry; apply Nat.eqb_neq; lia). auto.
Qed.

Lemma put_cfg_ok {h c} r {r0} : lookup_loc c (h_cfgs h) = Some r0 -> put_cfg h c r = Ok (do_write h (WCfg c r)).
Proof. intros E. unfold put_cfg. now rewrite E. Qed.

Lemma put_tab_ok h l t t0 : lookup_loc l (h_tabs h) = Some t0 -> put_tab h l t = Ok (do_write h (WTab l t)).
Proof. intros E. unfold put_tab. now rewrite E. Qed.

(** the write [config.version = 1.0] *)
Lemma set_version_spec {h c r} v : lookup_loc c (h_cfgs h) = Some r ->
  apply_op h c (SetVersion v) = Ok (do_write h (WCfg c (with_version r v))).
Proof. intros E. unfold apply_op. rewrite (get_cfg_eq E). cbn [bind]. eapply put_cfg_ok; eauto. Qed.

Definition owns (h : heap) (c : loc) (L : list loc) : Prop :=
  exists r cl hd, snapshot h c = Ok (mkSnap r cl hd) /\ objs c r = L.

Lemma snapshot_owns {h c r cl hd} : snapshot h c = Ok (mkSnap r cl hd) -> owns h c (objs c r).
Proof. intros Sn. now exists r, cl, hd. Qed.

(** whichever table is replaced, every table that existed still exists *)
Lemma owns_tab h c L l t : owns h c L -> owns (do_write h (WTab l t)) c L.
Proof.
  intros (r & cl & hd & Sn & Q). apply snapshot_iff in Sn as (E & E1 & E2).
  assert (T : forall y v, lookup_loc y (h_tabs h) = Some v ->
              exists v', lookup_loc y (h_tabs (do_write h (WTab l t))) = Some v').
  { intros y v Ey. rewrite tabs_write_tab. destruct (Nat.eqb y l); eauto. }
  destruct (T _ _ E1) as (cl' & E1'), (T _ _ E2) as (hd' & E2'). exists r, cl', hd'.
  split; [now apply snapshot_iff|exact Q].
Qed.

(** the footprint of an operation: one write to one of the Config's objects (an assignment keeps the two
    table references) *)
Lemma apply_op_spec h c o L : owns h c L ->
  exists w, apply_op h c o = Ok (do_write h w) /\ In (wloc w) L /\ owns (do_write h w) c L.
Proof.
  intros C. pose proof C as (r & cl & hd & Sn & <-). apply snapshot_iff in Sn as (E & E1 & E2).
  unfold apply_op. rewrite (get_cfg_eq E). cbn [bind]. unfold get_tab.
  destruct o; rewrite ?E1, ?E2; cbn [bind].
  (* an assignment *)
  1-6: rewrite (put_cfg_ok _ E); eexists; split; [reflexivity|]; split; [now left|].
  1-6: eexists _, cl, hd; split; [apply snapshot_iff; rewrite cfgs_write_cfg, Nat.eqb_refl; auto|reflexivity].
  (* an insertion into, or a removal from, one of the two tables *)
  all: erewrite put_tab_ok by eassumption; eexists; split; [reflexivity|]; split; [cbn; auto|].
  all: now apply owns_tab.
Qed.

Lemma apply_ops_spec os : forall h c L, owns h c L ->
  exists ws, apply_ops h c os = Ok (writes ws h) /\ Forall (fun w => In (wloc w) L) ws.
Proof.
  induction os as [|o os IH]; intros h c L C; cbn [apply_ops].
  - exists []. split; [reflexivity|constructor].
  - destruct (apply_op_spec h c o L C) as (w & -> & I & C1). cbn [bind].
    destruct (IH _ c L C1) as (ws & -> & F). exists (w :: ws). split; [reflexivity|now constructor].
Qed.

Lemma ops_miss os h a L b r cl hd : owns h a L -> snapshot h b = Ok (mkSnap r cl hd) ->
  (forall l, In l L -> ~ In l (objs b r)) ->
  exists h2, apply_ops h a os = Ok h2 /\ snapshot h2 b = Ok (mkSnap r cl hd).
Proof.
  intros C Sn D. destruct (apply_ops_spec os h a L C) as (ws & -> & F).
  eexists. split; [reflexivity|]. apply writes_miss; [exact Sn|]. eapply Forall_impl; [|exact F]. auto.
Qed.

(** ** Serving over the heap equals the pure dispatcher, and extends the heap above its allocation pointer *)

Definition yields {A} (m : res (heap * A)) (h : heap) (a : A) : Prop :=
  exists h1, m = Ok (h1, a) /\ ext (h_next h) h h1.

Lemma yields_ret {A} h (a : A) : yields (Ok (h, a)) h a.
Proof. exists h. split; [reflexivity|apply ext_refl]. Qed.

Lemma yields_bind {A B} (m : res (heap * A)) (k : heap * A -> res (heap * B)) h a b :
  yields m h a -> (forall h1, ext (h_next h) h h1 -> yields (k (h1, a)) h1 b) -> yields (bind m k) h b.
Proof.
  intros (h1 & -> & E1) K. destruct (K h1 E1) as (h2 & E & E2).
  exists h2. split; [exact E|].
  (* composition along a run: the later extension is above the later allocation pointer *)
  eapply ext_trans; [exact E1|]. eapply ext_weaken; [|exact E2]. apply ext_next in E1. lia.
Qed.

(** The predicates that say a Config is there.  "Complete" means that [snapshot] succeeds: the record and its
    two tables exist ([snapshot_iff]).  [cfg_ok h c] (the model's, and the hypothesis of the statements) is
    complete and all three objects below the allocation pointer ([cfg_ok_iff]); [owns h c L] is complete and the
    three objects are the list [L] (no bound: for the operations on a Config and its copy); [cfg_is h c f jc],
    further down, is only that the record exists and reads version [f] and flag [jc] (for the Config a thread
    works on, which may be a copy above the initial allocation pointer).  [serves h hs f jc] is [cfg_ok] and
    these two reads, of the server's own Config: the three hypotheses of the statements of Props/C13.v as one. *)
Definition serves (h : heap) (hs : hserver) (f : form) (jc : bool) : Prop :=
  cfg_ok h (hs_cfg hs) = true /\ read_form h (hs_cfg hs) = Ok f /\ read_jsonclass h (hs_cfg hs) = Ok jc.

(** [keep], for [serves] *)
Lemma serves_ext {h h' hs f jc} : serves h hs f jc -> ext (h_next h) h h' -> serves h' hs f jc.
Proof. intros (Hok & Hf & Hj). now apply keep. Qed.

Lemma read_form_inv h c f : read_form h c = Ok f ->
  exists r, lookup_loc c (h_cfgs h) = Some r /\ form_of_version (c_version r) = Some f.
Proof.
  unfold read_form, get_cfg. destruct (lookup_loc c (h_cfgs h)) as [r|]; [|discriminate].
  cbn [bind]. destruct (form_of_version (c_version r)) as [f'|] eqn:E; [|discriminate].
  intros H. inversion H; subst. eauto.
Qed.

Section Serving.
  Variable body : cid -> val -> outcome.
  Variable sigs : cid -> signature.

  Lemma request_config_spec h srv m f jc :
    cfg_ok h srv = true -> read_form h srv = Ok f -> read_jsonclass h srv = Ok jc ->
    exists h1 c, request_config h srv m = Ok (h1, c) /\ ext (h_next h) h h1
      /\ read_form h1 c = Ok (request_form f m) /\ read_jsonclass h1 c = Ok jc.
  Proof.
    intros Hok Hf Hj. unfold request_config, request_form. rewrite Hf. cbn [bind].
    destruct (negb (dhas m "jsonrpc") && form_eqb f V2).
    2:{ exists h, srv. auto using ext_refl. }
    apply cfg_ok_iff in Hok as (r & cl & hd & Sn & _).
    destruct (config_copy_ok h srv r cl hd Sn) as (h1 & -> & Ex & Nx & Sn1). cbn [bind].
    apply snapshot_iff in Sn as (E0 & _), Sn1 as (R & _). rewrite (set_version_spec _ R). cbn [bind].
    eexists _, _. split; [reflexivity|]. split.
    { eapply ext_trans; [exact Ex|]. apply ext_write. cbn. lia. }
    unfold read_form, read_jsonclass, get_cfg in *. rewrite cfgs_write_cfg, Nat.eqb_refl. cbn [bind].
    rewrite E0 in Hj. auto.
  Qed.

  Lemma single_dispatch_h_spec h hs dm m method params f jc : serves h hs f jc ->
    yields (single_dispatch_h body sigs h hs dm m method params) h
           (single_dispatch body sigs f (mkSrv (hs_reg hs) (hs_pool hs) jc) dm m method params).
  Proof.
    intros (Hok & Hf & Hj). unfold single_dispatch_h.
    destruct (request_config_spec h (hs_cfg hs) m f jc Hok Hf Hj) as (h1 & c & -> & Ex & Rf & Rj).
    cbn [bind]. rewrite Rf, Rj. cbn [bind]. exists h1. split; [reflexivity|exact Ex].
  Qed.

  Lemma answer_entry_h_spec h hs dm e f jc : serves h hs f jc ->
    yields (answer_entry_h body sigs h hs dm e) h
           (answer_entry body sigs f (mkSrv (hs_reg hs) (hs_pool hs) jc) dm e).
  Proof.
    intros S. unfold answer_entry_h, answer_entry. rewrite (proj1 (proj2 S)). cbn [bind].
    destruct (validate_request f e); [apply yields_ret|now apply single_dispatch_h_spec].
  Qed.

  Lemma batch_h_spec hs dm f jc es : forall h, serves h hs f jc ->
    yields (batch_h body sigs h hs dm es) h (batch body sigs f (mkSrv (hs_reg hs) (hs_pool hs) jc) dm es).
  Proof.
    induction es as [|e r IH]; intros h S; cbn [batch_h batch]; [apply yields_ret|].
    eapply yields_bind; [apply answer_entry_h_spec, S|]. intros h1 E1.
    destruct (answer_entry body sigs f _ dm e) as [o l].
    eapply yields_bind; [apply IH; eapply serves_ext; eauto|]. intros h2 _.
    destruct (batch body sigs f _ dm r) as [os ls]. apply yields_ret.
  Qed.

  Lemma unmarshaled_h_spec h hs dm req f jc : serves h hs f jc ->
    yields (unmarshaled_h body sigs h hs dm req) h
           (unmarshaled_dispatch body sigs f (mkSrv (hs_reg hs) (hs_pool hs) jc) dm req).
  Proof.
    intros S. unfold unmarshaled_h, unmarshaled_dispatch.
    destruct (negb (truthy req)).
    { rewrite (proj1 (proj2 S)). apply yields_ret. }
    (* a list is a batch, any other value a single entry *)
    destruct req as [| | | | |es| | | | | | | |].
    6:{ eapply yields_bind; [apply batch_h_spec, S|]. intros h1 _.
        destruct (batch body sigs f _ dm es) as [os lg]. apply yields_ret. }
    all: eapply yields_bind; [apply answer_entry_h_spec, S|]; intros h1 _.
    all: destruct (answer_entry body sigs f _ dm _) as [o lg]; apply yields_ret.
  Qed.

  Theorem serve_spec h hs dm p f jc : serves h hs f jc ->
    yields (serve body sigs h hs dm p) h (marshaled_dispatch body sigs f (mkSrv (hs_reg hs) (hs_pool hs) jc) dm p).
  Proof.
    intros S. unfold serve, marshaled_dispatch.
    destruct (loads_m p) as [req|x].
    2:{ rewrite (proj1 (proj2 S)). apply yields_ret. }
    eapply yields_bind; [apply unmarshaled_h_spec, S|]. intros h1 _.
    destruct (unmarshaled_dispatch body sigs f _ dm req) as [[] l]; apply yields_ret.
  Qed.

  Theorem serve_all_spec hs dm f jc ps : forall h, serves h hs f jc ->
    yields (serve_all body sigs h hs dm ps) h
           (map (marshaled_dispatch body sigs f (mkSrv (hs_reg hs) (hs_pool hs) jc) dm) ps).
  Proof.
    induction ps as [|p r IH]; intros h S; cbn [serve_all map]; [apply yields_ret|].
    eapply yields_bind; [apply serve_spec, S|]. intros h1 E1.
    eapply yields_bind; [apply IH; eapply serves_ext; eauto|]. intros h2 _. apply yields_ret.
  Qed.

End Serving.

(** ** Concurrent serving: all schedules *)

Lemma set_nth_map {A B} (g : A -> B) i a l x :
  nth_error l i = Some x -> g a = g x -> map g (set_nth i a l) = map g l.
Proof.
  revert i. induction l as [|y r IH]; intros [|i] H Q; cbn in *; try discriminate.
  - inversion H; subst. now rewrite Q.
  - now rewrite (IH i H Q).
Qed.

Lemma set_nth_Forall {A} (P : A -> Prop) i a l : Forall P l -> P a -> Forall P (set_nth i a l).
Proof.
  intros F Pa. revert i. induction F as [|y r Py Fr IH]; intros [|i]; cbn; constructor; auto.
Qed.

(* [inversion] and [injection] would unfold the heap on the left *)
Lemma Some_pair_inj {A B} (a a' : A) (b b' : B) : Some (a, b) = Some (a', b') -> a' = a /\ b' = b.
Proof. intros H. inversion H. auto. Qed.

Definition cfg_is (h : heap) (c : loc) (fm : form) (j : bool) : Prop :=
  exists r, lookup_loc c (h_cfgs h) = Some r /\ form_of_version (c_version r) = Some fm
            /\ truthy (c_use_jsonclass r) = j.

Lemma cfg_is_reads h c fm j : cfg_is h c fm j <-> read_form h c = Ok fm /\ read_jsonclass h c = Ok j.
Proof.
  unfold read_form, read_jsonclass. split.
  - intros (r & E & Fr & Tr). rewrite (get_cfg_eq E). cbn [bind]. now rewrite Fr, Tr.
  - intros [Hf Hj]. destruct (read_form_inv _ _ _ Hf) as (r & E & Fr). exists r.
    rewrite (get_cfg_eq E) in Hj. cbn [bind] in Hj. split; [exact E|]. split; [exact Fr|congruence].
Qed.

Section Concurrent.
  Variable body : cid -> val -> outcome.
  Variable sigs : cid -> signature.
  Variable hs : hserver.
  Variable h0 : heap.                    (* the heap when the threads start *)
  Variable f : form.
  Variable jc : bool.
  Hypothesis S0 : serves h0 hs f jc.

  Let n0 := h_next h0.
  Let srv := hs_cfg hs.

  (** what a thread knows at each program point.  [guar] does not say which thread writes which copy, so a
      copy ([n0 <= c]) may have its version set to 1.0 by any thread at any time: between its copy() and its
      own [config.version = 1.0] ([PSetVer]) a thread knows only that the version is some form ([exists fc]),
      and after it that it is 1.0 — which no write that [guar] allows can change *)
  Definition thread_ok (h : heap) (t : thread) : Prop :=
    let fm := request_form f (tr_m (t_req t)) in
    match t_pc t with
    | PTest => True
    | PCopy => fm = V1 /\ f = V2
    | PKeep => fm = f
    | PSetVer c => fm = V1 /\ n0 <= c < h_next h /\ exists fc, cfg_is h c fc jc
    | PCall c | PReply c => c < h_next h /\ cfg_is h c fm jc /\ (n0 <= c -> fm = V1)
    | PDone out => out = single_dispatch_with body sigs fm (mkSrv (hs_reg hs) (hs_pool hs) jc)
                           (tr_dm (t_req t)) (tr_m (t_req t)) (tr_method (t_req t)) (tr_params (t_req t))
    | PFailed => False
    end.

  Inductive guar (h h' : heap) : Prop :=
  | G_ext : ext (h_next h) h h' -> guar h h'
  | G_setver c r : lookup_loc c (h_cfgs h) = Some r -> n0 <= c ->
                   h' = do_write h (WCfg c (with_version r one_point_zero)) -> guar h h'.

  Lemma guar_ext h h' : n0 <= h_next h -> guar h h' -> ext n0 h h'.
  Proof. intros L [E|c r E Lc ->]; [now apply (ext_weaken (h_next h))|now apply ext_write]. Qed.

  Lemma guar_cfg_is {h h' c fm j} : guar h h' -> c < h_next h -> cfg_is h c fm j ->
    cfg_is h' c fm j \/ (n0 <= c /\ cfg_is h' c V1 j).
  Proof.
    intros [E|c' r' E Lc ->] L (r & Er & Fr & Tr).
    - left. exists r. now rewrite (proj1 (ext_lookup E L)).
    - destruct (Nat.eqb c c') eqn:Q.
      + apply Nat.eqb_eq in Q. subst c'. rewrite Er in E. inversion E; subst r'.
        right. split; [exact Lc|]. exists (with_version r one_point_zero).
        rewrite cfgs_write_cfg, Nat.eqb_refl. auto.
      + left. exists r. rewrite cfgs_write_cfg, Q. auto.
  Qed.

  Lemma thread_ok_stable h h' t : guar h h' -> n0 <= h_next h -> thread_ok h t -> thread_ok h' t.
  Proof.
    intros G L0. pose proof (ext_next (guar_ext _ _ L0 G)) as Nx. unfold thread_ok.
    destruct (t_pc t) as [| |c| |c|c|out|]; auto.
    1:{ intros (T & L & fc & Hc). split; [exact T|]. split; [lia|].
        destruct (guar_cfg_is G (proj2 L) Hc) as [?|[_ ?]]; eauto. }
    (* PCall, PReply *)
    all: intros (L & Hc & V); split; [lia|]; split; [|exact V].
    all: destruct (guar_cfg_is G L Hc) as [?|[Lc ?]]; [|rewrite (V Lc)]; assumption.
  Qed.

  Lemma srv_below : srv < n0.
  Proof. destruct (proj1 (cfg_ok_iff _ _) (proj1 S0)) as (r & cl & hd & _ & L & _). exact L. Qed.

  Lemma tstep_ok {h t h' p'} :
    ext n0 h0 h -> thread_ok h t -> tstep body sigs hs h t = Some (h', p') ->
    guar h h' /\ thread_ok h' (mkThread (t_req t) p').
  Proof.
    intros E T H. destruct (serves_ext S0 E) as (Hok & Hf & Hj). fold srv in Hok, Hf, Hj.
    pose proof (ext_next E) as Nx. fold n0 in Nx. pose proof srv_below as Sb.
    apply cfg_ok_iff in Hok as (r & cl & hd & Sn & _).
    unfold tstep in H. unfold thread_ok in *. cbn [t_req t_pc]. fold srv in H.
    destruct (t_pc t) as [| |c| |c|c|out|]; try discriminate H.
    - (* PTest *)
      rewrite Hf in H. apply Some_pair_inj in H as [-> ->]. split; [apply G_ext, ext_refl|].
      unfold request_form. destruct (negb _ && form_eqb f V2) eqn:Q; [|reflexivity].
      split; [reflexivity|]. apply andb_true_iff in Q as [_ Q]. now destruct f.
    - (* PCopy: the copy has the server's attributes *)
      destruct (config_copy_ok h srv r cl hd Sn) as (h1 & HS & Ex & Nx1 & Sn1).
      rewrite HS in H. apply Some_pair_inj in H as [-> ->]. split; [now apply G_ext|].
      split; [apply T|]. split; [lia|]. exists f.
      destruct (proj2 (cfg_is_reads _ _ _ _) (conj Hf Hj)) as (r1 & Er & Fr & Tr).
      apply snapshot_iff in Sn as (E0 & _), Sn1 as (R & _).
      rewrite E0 in Er. inversion Er; subst r1. exists (copy_rec r (h_next h)). auto.
    - (* PSetVer *)
      destruct T as (Tt & L & fc & r1 & Er & _ & Tr).
      rewrite (set_version_spec _ Er) in H. apply Some_pair_inj in H as [-> ->].
      split; [apply (G_setver _ _ c r1 Er); [lia|reflexivity]|].
      split; [rewrite next_write; cbn [wloc]; lia|]. split; [|auto]. rewrite Tt.
      exists (with_version r1 one_point_zero). rewrite cfgs_write_cfg, Nat.eqb_refl. auto.
    - (* PKeep *)
      apply Some_pair_inj in H as [-> ->]. split; [apply G_ext, ext_refl|]. rewrite T.
      split; [lia|]. split; [now apply cfg_is_reads|]. lia.
    - (* PCall *)
      apply Some_pair_inj in H as [-> ->]. split; [apply G_ext, ext_refl|exact T].
    - (* PReply *)
      destruct T as (L & Hc & _). apply cfg_is_reads in Hc as [Rf Rj].
      rewrite Rf, Rj in H. apply Some_pair_inj in H as [-> ->]. split; [apply G_ext, ext_refl|reflexivity].
  Qed.

  Definition sys_ok (reqs : list treq) (s : cstate) : Prop :=
    ext n0 h0 (cs_heap s) /\ map t_req (cs_threads s) = reqs /\ Forall (thread_ok (cs_heap s)) (cs_threads s).

  Lemma cstep_ok reqs s i : sys_ok reqs s -> sys_ok reqs (cstep body sigs hs s i).
  Proof.
    intros (E & M & F). unfold cstep.
    destruct (nth_error (cs_threads s) i) as [t|] eqn:Nt; [|now repeat split].
    destruct (tstep body sigs hs (cs_heap s) t) as [[h' p']|] eqn:St; [|now repeat split].
    assert (T : thread_ok (cs_heap s) t).
    { rewrite Forall_forall in F. apply F. eapply nth_error_In; eauto. }
    destruct (tstep_ok E T St) as [G T'].
    pose proof (ext_next E) as Nx. fold n0 in Nx.
    split; [|split]; cbn [cs_heap cs_threads].
    - eapply ext_trans; [exact E|]. now apply guar_ext.
    - rewrite <- M. eapply set_nth_map; eauto.
    - apply set_nth_Forall; [|exact T'].
      eapply Forall_impl; [|exact F]. intros t0. now apply thread_ok_stable.
  Qed.

  (** for every schedule: the heap extends the initial one above its allocation pointer; the i-th thread
      serves the i-th request, has not failed, and when it has finished its answer is the sequential one *)
  Theorem run_ok reqs sched : sys_ok reqs (run_sched body sigs hs sched (mkCS h0 (init_threads reqs))).
  Proof.
    unfold run_sched. apply Sched.fold_left_invariant; [intros s i; apply cstep_ok|].
    split; [apply ext_refl|]. split; cbn [cs_threads cs_heap]; unfold init_threads.
    - rewrite map_map. apply map_id.
    - apply Forall_forall. intros t Hin. apply in_map_iff in Hin as (rq & <- & _). exact I.
  Qed.

End Concurrent.
