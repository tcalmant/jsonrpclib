(** Preservation of the counting invariants: nb_threads counts the serving workers (I_nb) and stays within
    max_threads (I_bound); unfinished_tasks counts what is queued or held (I_unf). *)
From JR Require Import PoolInvDefs PoolInvA.

Lemma P_nb {s t f s'} : I_created s -> I_wf s -> I_nb s -> step s t f = Some s' -> I_nb s'.
Proof.
  intros Hcr Hwf Hnb H. unfold I_nb in *.
  destruct (step_Step H) as [w l h cl s1 Ew HS | c l p jc s1 Ec HS].
  - (* a worker moves: it serves or not as before, except where it decrements nb_threads *)
    pose proof (WStep_count serving Hcr Ew HS) as E. specialize (Hwf w). rewrite Ew in Hwf.
    (* the clean flag is as the label says (I_wf): set at WUnlock3R, clear where the thread counter is still to be decremented *)
    destruct HS; simp; rewrite upd_same in E; destruct cl; try discriminate; cbn in E; lia.
  - (* a client moves: only __start_thread touches the counter and the workers *)
    destruct HS; simp; try exact Hnb.
    + (* CSNbInc *) rewrite count_new. cbn. lia.
    + (* CSTStart *) rewrite (count_started serving s c k v Hcr); [exact Hnb | rewrite Ec; reflexivity | reflexivity].
Qed.

Lemma P_bound {s t f s'} : I_lock s -> I_bound s -> step s t f = Some s' -> I_bound s'.
Proof.
  intros Hlk [Hb1 Hb2] H. unfold I_bound.
  destruct (step_Step H) as [w l h cl s1 Ew HS | c l p jc s1 Ec HS].
  - (* a worker moves: nb_threads does not grow, the clients stay *)
    destruct HS; simp; (split; [lia | intros c' k' Hc'; specialize (Hb2 c' k' Hc'); lia]).
  - (* a client moves: another client stays where it is; the mover comes to CSNbInc from CSTest only *)
    destruct HS; simp.
    all: split; [try lia | intros c' k' Hc'; destruct (Nat.eq_dec c' c) as [->|Hne];
                           [rewrite upd_same in Hc'; cbn [cpc] in Hc' | rewrite upd_other in Hc' by assumption]].
    all: try discriminate Hc'; try exact (Hb2 c' k' Hc'); try (revert Hc'; label_cases; discriminate).
    + (* CSTest passed *) assumption.
    + (* CSNbInc: the test was passed *) specialize (Hb2 c k). rewrite Ec in Hb2. specialize (Hb2 eq_refl). lia.
    + (* CSNbInc while another client is at CSNbInc: both would hold the lock *)
      exfalso. apply (two_lockers s c' c Hlk Hne); [rewrite Hc' | rewrite Ec]; cbn; lia.
Qed.

Lemma P_unf {s t f s'} : I_ctl s -> I_created s -> I_unf s -> step s t f = Some s' -> I_unf s'.
Proof.
  intros Hctl Hcr Hunf H. unfold I_unf, clear_pending in *.
  destruct (step_Step H) as [w l h cl s1 Ew HS | c l p jc s1 Ec HS].
  - (* a worker moves: it holds an item or not as before, except at the four queue operations *)
    pose proof (WStep_count holding Hcr Ew HS) as E.
    destruct HS; simp; rewrite upd_same in E; cbn [holding wpc b2n] in E; try lia.
    + (* WGet takes a task: from the queue to the hand *) rewrite Hq in Hunf. cbn [length] in Hunf. lia.
    + (* WGet takes a sentinel *) rewrite Hq in Hunf. cbn [length] in Hunf. lia.
  - (* a client moves; only the controller is ever at CCLDone *)
    assert (Hcs : forall S y, cs (set_c S c y) 0%nat = if Nat.eq_dec c 0 then y else cs S 0%nat).
    { intros. destruct (Nat.eq_dec c 0) as [->|?]; [apply upd_same | apply upd_other; congruence]. }
    rewrite (CStep_count holding Hcr Ec HS eq_refl eq_refl).
    destruct (Nat.eq_dec c 0) as [->|Hc0]; [rewrite Ec in Hunf | specialize (Hctl c Hc0); rewrite Ec in Hctl];
      destruct HS; try discriminate Hctl; rewrite Hcs; simp; try exact Hunf.
    (* left: CEPut, CSPPut (one more queued, one more unfinished), CCLGet (one fewer queued, the controller now at
       CCLDone), CCLDone, the controller at a computed label *)
    all: rewrite ?last_length; try rewrite Hq in Hunf; cbn [length] in *.
    all: try label_cases; lia.
Qed.
