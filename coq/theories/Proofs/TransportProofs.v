(** * TransportProofs — proofs about Model/Transport.v (property C19).

    All statements quantify over every fault script, every token list (every number of calls)
    and every host / handler.  What state an attempt leaves, and that it succeeds on a healthy script, are
    facts about the http.client table and are established by walking it, at the level of one attempt
    ([single_request_inv], [healthy_attempt]); that the reply it reads is its own has a reason, given where
    [exchange_reply] is proved.  What an attempt preserves is carried to calls and runs of calls by the
    section [Preserved]. *)

From JR Require Import Transport.

Lemma proxy_result_reply tok : proxy_result (reply_of tok) = Ok tok.
Proof. reflexivity. Qed.

Lemma nbs_200 : no_body_status 200 = false.
Proof. reflexivity. Qed.

(** a body is "own" for [tok] when, if it is a JSON-RPC reply at all, it echoes [tok] *)
Definition body_own (tok : val) (b : body) : Prop :=
  match b with BReply t => t = tok | _ => True end.

Definition res_own (tok : val) (r : res body) : Prop :=
  match r with Ok b => body_own tok b | Raise _ => True end.

Local Opaque no_body_status.

(** The tactics below walk the http.client table.  [split_state] gives the 8 shapes of a state that satisfies
    [inv]: nothing cached; a closed connection; an open socket with empty input and the peer open, gone by FIN
    or gone by RST; a response still attached, with the same three peer states.  [split_script] gives the 12
    cases of the next fault symbol (exhausted script, or one of the 11 symbols).  [crunch] evaluates
    [single_request] on each and splits on a status being 200 / bodiless ([no_body_status] is opaque so that
    an abstract status stays one case).  The rows that matter: a peer that has gone, or goes without a reply,
    makes the attempt fail retryably and close the transport; [FBodiless] with a 204/304/1xx status leaves
    a response attached. *)

Ltac split_status :=
  repeat match goal with
    | |- context [Z.eqb ?s 200] => is_var s; destruct (Z.eqb s 200) eqn:?
    | |- context [no_body_status ?s] => is_var s; destruct (no_body_status s) eqn:?
    end.

Ltac split_state st H :=
  let s := fresh "s" in let p := fresh "p" in let ib := fresh "ib" in let pd := fresh "pd" in
  let sc := fresh "script" in
  destruct st as [[[[[p ib]|] pd]|] sc];
  cbn in H;
  [ destruct pd; [ destruct p | destruct ib; [|discriminate H]; destruct p ]
  | destruct pd; [discriminate H|]
  | ].

Ltac split_script sc :=
  let f := fresh "f" in let rest := fresh "rest" in
  destruct sc as [|f rest]; [|destruct f].

Ltac red1 :=
  cbn [make_connection h_request h_getresponse h_read next_fault peer_deliver peer_act
       transport_close closed_conn body_nonempty t_cached t_script h_sock h_pending
       s_pend s_inbuf r_status r_has_len r_body app fst snd negb andb orb inv idle conn_clean
       Z.eqb Pos.eqb].
Ltac crunch1 :=
  unfold exchange, single_request; red1;
  unfold h_read, will_close; red1; rewrite ?nbs_200; red1.
(* two rounds: the tests on an abstract status show one layer at a time: first the bodiless test of
   [h_getresponse]'s [will_close]; once the response has been read, the 200 test of [single_request] and
   the [will_close] of [h_read] *)
Ltac crunch := do 2 (crunch1; split_status); crunch1.

Lemma single_request_outcome host handler st tok :
  snd (single_request host handler st tok) =
  match exchange st tok with
  | Ok r => if r_status r =? 200 then Ok (r_body r) else Raise (ETransport (url_of host handler) (r_status r))
  | Raise e => Raise e
  end.
Proof.
  unfold single_request, exchange.
  destruct (h_request _ _ _) as [[c1 sc1] [u|e1]]; [|reflexivity].
  destruct (h_getresponse c1) as [c2 [r|e2]]; [|reflexivity]. cbn [snd]. now destruct (r_status r =? 200).
Qed.

Definition call_result (b : body) : res val := do r <- run_request b; proxy_result r.

Lemma proxy_call_outcome host handler st tok :
  snd (proxy_call host handler st tok) =
  do b <- snd (single_request host handler (last_attempt_state host handler st tok) tok); call_result b.
Proof.
  unfold proxy_call, transport_request, last_attempt_state.
  destruct (single_request host handler st tok) as [st1 [b|e]] eqn:E; [now rewrite E|].
  destruct (retryable e); [now destruct (single_request host handler st1 tok) as [st2 [b2|e2]] | now rewrite E].
Qed.

Lemma h_request_facts c sc tok :
  h_pending (fst (fst (h_request c sc tok))) = h_pending c /\
  (snd (fst (h_request c sc tok)) = sc \/ snd (fst (h_request c sc tok)) = tl sc) /\
  forall e, snd (h_request c sc tok) = Raise e -> e = EConnRefused.
Proof.
  unfold h_request. destruct (h_sock c) as [sk|]; [destruct (s_pend sk)|];
    destruct sc as [|[] rest]; cbn; repeat split; auto; intros e [=]; auto.
Qed.

Lemma h_getresponse_no_terr c u s : snd (h_getresponse c) <> Raise (ETransport u s).
Proof.
  unfold h_getresponse. destruct (h_pending c); [discriminate|].
  destruct (h_sock c) as [sk|]; [|discriminate].
  destruct (s_inbuf sk) as [|[r|] rest]; [destruct (s_pend sk) | destruct (will_close r) | ]; discriminate.
Qed.

Lemma exchange_no_terr st tok u s : exchange st tok <> Raise (ETransport u s).
Proof.
  unfold exchange. pose proof (h_request_facts (make_connection st) (t_script st) tok) as (_ & _ & R).
  destruct (h_request _ _ _) as [[c1 sc1] [x|e1]]; [apply h_getresponse_no_terr|].
  rewrite (R e1 eq_refl). discriminate.
Qed.

Lemma call_result_no_terr b u s : call_result b <> Raise (ETransport u s).
Proof. destruct b; discriminate. Qed.

(** what state an attempt leaves is a matter of the http.client table (status, length, close) *)
Lemma single_request_inv host handler st tok :
  inv st = true -> inv (fst (single_request host handler st tok)) = true.
Proof. intros H. split_state st H; split_script script; crunch; auto. Qed.

(** a response still attached: the attempt fails for good (ResponseNotReady, or the refused connection),
    whatever else the state holds *)
Lemma single_request_pending host handler st tok :
  idle st = false ->
  exists e, retryable e = false /\
    single_request host handler st tok = (transport_close (t_script (fst (single_request host handler st tok))), Raise e).
Proof.
  unfold idle, single_request, make_connection. destruct (t_cached st) as [c|]; [|discriminate].
  intros Hp. apply negb_false_iff in Hp.
  pose proof (h_request_facts c (t_script st) tok) as (P & _ & R).
  destruct (h_request c (t_script st) tok) as [[c1 sc1] [x|e1]]; cbn [fst snd] in *.
  - unfold h_getresponse. rewrite P, Hp. now exists ENotReady.
  - rewrite (R e1 eq_refl). now exists EConnRefused.
Qed.

Lemma single_request_retry host handler st tok st1 e :
  single_request host handler st tok = (st1, Raise e) -> retryable e = true ->
  t_cached st1 = None.
Proof.
  unfold single_request.
  destruct (h_request (make_connection st) (t_script st) tok) as [[c1 sc1] [u|e1]].
  - destruct (h_getresponse c1) as [c2 [r|e2]].
    + destruct (r_status r =? 200); intros E; inversion E; subst; discriminate.
    + intros E; inversion E; subst; reflexivity.
  - intros E; inversion E; subst; reflexivity.
Qed.

Lemma run_calls_cons host handler st tok toks :
  run_calls host handler st (tok :: toks) =
  (fst (run_calls host handler (fst (proxy_call host handler st tok)) toks),
   snd (proxy_call host handler st tok) :: snd (run_calls host handler (fst (proxy_call host handler st tok)) toks)).
Proof.
  cbn [run_calls]. destruct (proxy_call host handler st tok) as [st1 o]. cbn [fst snd].
  now destruct (run_calls host handler st1 toks).
Qed.

Section Preserved.
  Variables (P : state -> Prop) (host handler : str).
  Hypothesis attempt : forall st tok, P st -> P (fst (single_request host handler st tok)).

  Lemma proxy_call_preserves st tok : P st -> P (fst (proxy_call host handler st tok)).
  Proof.
    intros H. unfold proxy_call, transport_request. pose proof (attempt st tok H) as H1.
    destruct (single_request host handler st tok) as [st1 [b|e]]; [exact H1|].
    destruct (retryable e); [|exact H1]. pose proof (attempt st1 tok H1) as H2.
    now destruct (single_request host handler st1 tok) as [st2 [b2|e2]].
  Qed.

  Lemma last_attempt_preserves st tok : P st -> P (last_attempt_state host handler st tok).
  Proof.
    intros H. unfold last_attempt_state. pose proof (attempt st tok H) as H1.
    destruct (single_request host handler st tok) as [st1 [b|e]]; [exact H|]. now destruct (retryable e).
  Qed.

  Lemma run_calls_preserves toks : forall st, P st -> P (fst (run_calls host handler st toks)).
  Proof.
    induction toks as [|tok toks IH]; intros st H; [exact H|].
    rewrite run_calls_cons. apply IH, proxy_call_preserves, H.
  Qed.
End Preserved.
Arguments proxy_call_preserves {P host handler}.

(** ** Why the reply an attempt reads answers the request of this very attempt: a clean connection that is
    not waiting on a response has nothing in flight, the request puts at most the peer's answer to it there,
    and that is what [getresponse] reads *)

Definition no_input (c : hconn) : Prop :=
  match h_sock c with Some s => s_inbuf s = [] | None => True end.

Lemma clean_no_input st :
  inv st = true -> h_pending (make_connection st) = false -> no_input (make_connection st).
Proof.
  unfold inv, make_connection, conn_clean, no_input. destruct (t_cached st) as [c|]; [|easy].
  destruct (h_sock c) as [s|]; [|easy]. intros H P. rewrite P in H. now destruct (s_inbuf s).
Qed.

Lemma peer_deliver_input f tok s r rest :
  s_inbuf (peer_deliver f tok s) = IResponse r :: rest -> s_inbuf s = [] ->
  exists cl, peer_act f tok = PReply r cl.
Proof. intros H E. revert H. unfold peer_deliver. destruct (peer_act f tok); cbn [s_inbuf]; rewrite ?E; intros [= <- _]; eauto. Qed.

Lemma h_request_input c sc tok s1 r rest :
  no_input c -> h_sock (fst (fst (h_request c sc tok))) = Some s1 -> s_inbuf s1 = IResponse r :: rest ->
  exists cl, peer_act (fst (next_fault sc)) tok = PReply r cl.
Proof.
  unfold h_request, no_input. destruct (h_sock c) as [s|] eqn:S; [destruct (s_pend s)|];
    destruct sc as [|[] rest']; cbn [next_fault fst h_sock]; rewrite ?S; intros E [= <-];
    cbn [s_inbuf];
    (* the input is the old one, empty, or the peer has delivered onto an empty input *)
    first [congruence | eauto using peer_deliver_input].
Qed.

Lemma h_getresponse_reads c r :
  snd (h_getresponse c) = Ok r ->
  h_pending c = false /\ exists s rest, h_sock c = Some s /\ s_inbuf s = IResponse r :: rest.
Proof.
  unfold h_getresponse. destruct (h_pending c); [discriminate|].
  destruct (h_sock c) as [s|]; [|discriminate].
  destruct (s_inbuf s) as [|[r'|] rest] eqn:I; [destruct (s_pend s); discriminate | | discriminate].
  destruct (will_close r'); intros [= ->]; eauto.
Qed.

Lemma exchange_reply st tok r :
  inv st = true -> exchange st tok = Ok r ->
  exists cl, peer_act (fst (next_fault (t_script st))) tok = PReply r cl.
Proof.
  intros H. unfold exchange.
  pose proof (h_request_facts (make_connection st) (t_script st) tok) as (P & _ & _).
  pose proof (h_request_input (make_connection st) (t_script st) tok) as D.
  destruct (h_request _ _ _) as [[c1 sc1] [u|e]]; [|discriminate]. cbn [fst snd] in *.
  intros (Pf & s1 & rest & Hs & Hi)%h_getresponse_reads. rewrite Pf in P.
  exact (D s1 r rest (clean_no_input st H (eq_sym P)) Hs Hi).
Qed.

(** the peer answers the request it was sent *)
Lemma peer_own {f tok r cl} : peer_act f tok = PReply r cl -> body_own tok (r_body r).
Proof. destruct f; intros [= <- _]; exact I || reflexivity. Qed.

Lemma single_request_own host handler st tok :
  inv st = true -> res_own tok (snd (single_request host handler st tok)).
Proof.
  intros H. rewrite single_request_outcome. destruct (exchange st tok) as [r|e] eqn:E; [|exact I].
  destruct (r_status r =? 200); [|exact I]. destruct (exchange_reply st tok r H E) as [cl P].
  exact (peer_own P).
Qed.

Lemma call_result_own tok b : body_own tok b -> call_result b = Ok tok \/ exists e, call_result b = Raise e.
Proof. destruct b; cbn; intros; subst; eauto. Qed.

Lemma proxy_call_own host handler st tok :
  inv st = true ->
  snd (proxy_call host handler st tok) = Ok tok \/ exists e, snd (proxy_call host handler st tok) = Raise e.
Proof.
  intros H. rewrite proxy_call_outcome.
  apply (last_attempt_preserves (fun st => inv st = true) _ _ (single_request_inv host handler) st tok) in H.
  pose proof (single_request_own host handler _ tok H) as O.
  destruct (snd (single_request _ _ _ _)) as [b|e]; cbn [bind]; [now apply call_result_own | eauto].
Qed.

Lemma run_calls_own host handler toks : forall st i tok,
  inv st = true -> nth_error toks i = Some tok ->
  exists o, nth_error (snd (run_calls host handler st toks)) i = Some o /\ (o = Ok tok \/ exists e, o = Raise e).
Proof.
  induction toks as [|t toks IH]; intros st i tok H Hn; [destruct i; discriminate Hn|].
  rewrite run_calls_cons. destruct i as [|i]; cbn [snd nth_error] in *.
  - injection Hn as <-. eexists. split; [reflexivity|]. now apply proxy_call_own.
  - apply IH; [|exact Hn]. now apply (proxy_call_preserves (single_request_inv host handler)).
Qed.

Lemma single_request_script host handler st tok :
  t_script (fst (single_request host handler st tok)) = t_script st \/
  t_script (fst (single_request host handler st tok)) = tl (t_script st).
Proof.
  unfold single_request.
  pose proof (h_request_facts (make_connection st) (t_script st) tok) as (_ & K & _).
  destruct (h_request (make_connection st) (t_script st) tok) as [[c1 sc1] [u|e1]]; cbn [fst snd] in *.
  - destruct (h_getresponse c1) as [c2 [r|e2]]; [destruct (r_status r =? 200)|]; exact K.
  - exact K.
Qed.

Definition healthy (st : state) : Prop := forallb is_healthy (t_script st) = true.

Lemma single_request_healthy host handler st tok :
  healthy st -> healthy (fst (single_request host handler st tok)).
Proof.
  unfold healthy. destruct (single_request_script host handler st tok) as [-> | ->]; [auto|].
  destruct (t_script st); cbn; [auto|]. now intros [_ H]%andb_true_iff.
Qed.

(** second disjunct: the cached connection had been closed by the peer; the attempt fails in the way the
    transport retries, and leaves nothing cached *)
Lemma healthy_attempt host handler st tok :
  inv st = true -> idle st = true -> healthy st ->
  exists st1,
    (single_request host handler st tok = (st1, Ok (BReply tok)) \/
     exists e, single_request host handler st tok = (st1, Raise e) /\ retryable e = true /\
               t_cached st <> None /\ t_cached st1 = None) /\
    inv st1 = true /\ idle st1 = true.
Proof.
  unfold healthy. intros H Hi Hh.
  split_state st H; try discriminate Hi; split_script script;
    cbn [t_script forallb is_healthy andb] in Hh; try discriminate Hh;
    crunch; eexists;
    (* the right branch holds exactly when the cached socket's peer has gone (FIN or RST): the request is lost,
       getresponse raises RemoteDisconnected / ConnectionResetError and the transport is closed *)
    (split; [first [left; reflexivity | right; eexists; repeat split; discriminate] | now auto]).
Qed.

Lemma pending_call host handler st tok :
  idle st = false ->
  (exists e, snd (proxy_call host handler st tok) = Raise e) /\
  t_cached (fst (proxy_call host handler st tok)) = None.
Proof.
  intros Hi. destruct (single_request_pending host handler st tok Hi) as (e & He & E).
  unfold proxy_call, transport_request. rewrite E, He. cbn. eauto.
Qed.

(** the transport returns the reply, at once or after its one retry *)
Lemma healthy_request host handler st tok :
  inv st = true -> idle st = true -> healthy st ->
  exists st2, transport_request host handler st tok = (st2, Ok (BReply tok)) /\ inv st2 = true /\ idle st2 = true.
Proof.
  intros H Hi Hh. unfold transport_request.
  pose proof (single_request_healthy host handler st tok Hh) as Hh1.
  destruct (healthy_attempt host handler st tok H Hi Hh) as (st1 & [E|(e & E & Er & _ & C)] & H1 & Hi1);
    rewrite E in *; cbn [fst] in Hh1; [eauto|].
  cbn iota. rewrite Er.
  (* the retry starts with nothing cached, so it cannot fail in that way again *)
  destruct (healthy_attempt host handler st1 tok H1 Hi1 Hh1) as (st2 & [->|(_ & _ & _ & C' & _)] & H2);
    [eauto|contradiction].
Qed.

(** on a healthy script every call leaves the proxy idle again, and only one that finds a response still
    attached fails *)
Lemma healthy_call host handler st tok :
  inv st = true -> healthy st ->
  (idle st = true -> snd (proxy_call host handler st tok) = Ok tok) /\
  inv (fst (proxy_call host handler st tok)) = true /\
  idle (fst (proxy_call host handler st tok)) = true.
Proof.
  intros H Hh. destruct (idle st) eqn:Hi.
  - destruct (healthy_request host handler st tok H Hi Hh) as (st2 & E & H2).
    unfold proxy_call. rewrite E. cbn [fst snd run_request bind]. now rewrite proxy_result_reply.
  - destruct (pending_call host handler st tok Hi) as [_ C]. unfold inv, idle. now rewrite C.
Qed.

Lemma healthy_run host handler toks : forall st,
  inv st = true -> idle st = true -> healthy st ->
  snd (run_calls host handler st toks) = map Ok toks.
Proof.
  induction toks as [|tok toks IH]; intros st H Hi Hh; [reflexivity|].
  rewrite run_calls_cons. cbn [snd map]. destruct (healthy_call host handler st tok H Hh) as (E & H1 & Hi1).
  rewrite (E Hi). f_equal. apply IH; [assumption..|].
  now apply (proxy_call_preserves (single_request_healthy host handler)).
Qed.

(** the first call may still fail (a response was left attached) *)
Lemma recovery host handler st tok toks :
  inv st = true -> healthy st ->
  exists o, snd (run_calls host handler st (tok :: toks)) = o :: map Ok toks.
Proof.
  intros H Hh. rewrite run_calls_cons. cbn [snd]. eexists. f_equal.
  destruct (healthy_call host handler st tok H Hh) as (_ & H1 & Hi1).
  apply healthy_run; [assumption..|]. now apply (proxy_call_preserves (single_request_healthy host handler)).
Qed.

Lemma no_failures (toks : list val) : filter is_raise (map Ok toks) = [].
Proof. induction toks; cbn; auto. Qed.

Lemma tl_skipn {A} (l : list A) k : tl (skipn k l) = skipn (S k) l.
Proof.
  revert l; induction k as [|k IH]; intros [|x l]; try reflexivity.
  change (tl (skipn k l) = skipn (S k) l). apply IH.
Qed.

Definition suffix_left (script : list fault) (st : state) : Prop := exists k, t_script st = skipn k script.

Lemma single_request_suffix script host handler st tok :
  suffix_left script st -> suffix_left script (fst (single_request host handler st tok)).
Proof.
  intros [k E]. unfold suffix_left. destruct (single_request_script host handler st tok) as [-> | ->]; rewrite E;
    [exists k | exists (S k)]; auto using tl_skipn.
Qed.
