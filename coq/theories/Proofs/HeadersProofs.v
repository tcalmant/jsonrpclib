(** * HeadersProofs — the vocabulary of the C18 statements; the emitted lines as a dictionary looked up in the
    pushed layers read backwards; the stack after any enter / leave sequence. *)

From JR Require Import Headers.
From Coq Require Import Ascii Lia ZifyBool.

(** the item's name is [n] up to case ([n] is expected in lower case) *)
Definition name_is (n : str) (kv : str * val) : bool := String.eqb n (ascii_lower (fst kv)).
Definition defines (h : hdict) (n : str) : bool := existsb (name_is n) h.
(** the values the dictionary gives to the case variants of [n] *)
Definition variants_in (h : hdict) (n : str) : list val := map snd (filter (name_is n) h).

(** the most recently pushed dictionary (last in push order) that defines [n] *)
Fixpoint last_defining (ls : list hdict) (n : str) : option hdict :=
  match ls with
  | [] => None
  | h :: r =>
      match last_defining r n with
      | Some h' => Some h'
      | None => if defines h n then Some h else None
      end
  end.

Definition line_is (n : str) (kv : str * str) : bool := String.eqb n (ascii_lower (fst kv)).
Definition key_is (n : str) (kv : str * str) : bool := String.eqb n (fst kv).

Lemma fold_left_concat {A B} (f : A -> B -> A) (ls : list (list B)) : forall a,
  fold_left f (concat ls) a = fold_left (fun a l => fold_left f l a) ls a.
Proof. induction ls as [|l r IH]; intros a; simpl; [reflexivity|]. rewrite fold_left_app. apply IH. Qed.

Lemma fold_left_map {A B C} (f : A -> C -> A) (g : B -> C) (l : list B) : forall a,
  fold_left f (map g l) a = fold_left (fun a x => f a (g x)) l a.
Proof. induction l as [|x r IH]; intros a; simpl; [reflexivity|apply IH]. Qed.

Lemma map_fst_filter {A B} (p : A -> bool) (l : list (A * B)) :
  map fst (filter (fun kv => p (fst kv)) l) = filter p (map fst l).
Proof. induction l as [|x r IH]; simpl; [reflexivity|]. destruct (p (fst x)); simpl; now rewrite IH. Qed.

Lemma filter_framed {A} (p : A -> bool) a b X Y :
  filter p (a :: b :: X ++ Y) = (filter p [a; b] ++ filter p X ++ filter p Y)%list.
Proof. now rewrite <- !filter_app. Qed.

Lemma ascii_lower_char_idem a : ascii_lower_char (ascii_lower_char a) = ascii_lower_char a.
Proof.
  unfold ascii_lower_char. destruct ((65 <=? N_of_ascii a)%N && (N_of_ascii a <=? 90)%N) eqn:E; [|now rewrite E].
  rewrite N_ascii_embedding by lia. now replace ((65 <=? _)%N && _) with false by lia.
Qed.

Lemma ascii_lower_idem s : ascii_lower (ascii_lower s) = ascii_lower s.
Proof. induction s as [|a r IH]; simpl; [reflexivity|]. now rewrite ascii_lower_char_idem, IH. Qed.

Section Emit.
  Variable ostr : val -> str.
  Notation pystr := (pystr ostr).

  Lemma slookup_sset m k v k' :
    slookup (sset m k v) k' = if String.eqb k' k then Some v else slookup m k'.
  Proof.
    induction m as [|[k0 v0] r IH]; simpl.
    - reflexivity.
    - destruct (String.eqb k k0) eqn:E; simpl.
      + apply String.eqb_eq in E. subst k0. destruct (String.eqb k' k); reflexivity.
      + rewrite IH. destruct (String.eqb k' k0) eqn:E0; [|reflexivity].
        apply String.eqb_eq in E0. subst k0.
        destruct (String.eqb k' k) eqn:E1; [|reflexivity].
        apply String.eqb_eq in E1. subst k'. rewrite String.eqb_refl in E. discriminate.
  Qed.

  Lemma keys_sset m k v x : In x (map fst (sset m k v)) <-> x = k \/ In x (map fst m).
  Proof.
    induction m as [|[k0 v0] r IH]; simpl.
    - intuition.
    - destruct (String.eqb k k0) eqn:E; simpl.
      + apply String.eqb_eq in E. subst. intuition.
      + rewrite IH. intuition.
  Qed.

  Lemma NoDup_sset m k v : NoDup (map fst m) -> NoDup (map fst (sset m k v)).
  Proof.
    induction m as [|[k0 v0] r IH]; simpl; intros H.
    - constructor; [intros []|constructor].
    - inversion H as [|? ? Hn Hr]; subst. destruct (String.eqb k k0) eqn:E; simpl.
      + constructor; assumption.
      + constructor; [|apply IH; assumption].
        rewrite keys_sset. intros [->|Hin]; [rewrite String.eqb_refl in E; discriminate|contradiction].
  Qed.

  Lemma In_sset m k v a b : In (a, b) (sset m k v) -> (a = k /\ b = v) \/ In (a, b) m.
  Proof.
    induction m as [|[k0 v0] r IH]; simpl.
    - intros [H|[]]. inversion H. auto.
    - destruct (String.eqb k k0) eqn:E; simpl.
      + apply String.eqb_eq in E. subst. intros [H|H]; [inversion H; auto|auto].
      + intros [H|H]; [auto|]. destruct (IH H); auto.
  Qed.

  Lemma slookup_In m k v : slookup m k = Some v -> In (k, v) m.
  Proof.
    induction m as [|[k0 v0] r IH]; simpl; [discriminate|].
    destruct (String.eqb k k0) eqn:E.
    - apply String.eqb_eq in E. subst. intros H; inversion H; auto.
    - auto.
  Qed.

  Lemma In_slookup m k v : NoDup (map fst m) -> In (k, v) m -> slookup m k = Some v.
  Proof.
    induction m as [|[k0 v0] r IH]; simpl; intros Hn; [intros []|].
    inversion Hn as [|? ? Hk Hr]; subst. intros [H|H].
    - inversion H; subst. now rewrite String.eqb_refl.
    - destruct (String.eqb k k0) eqn:E; [|auto].
      apply String.eqb_eq in E. subst. exfalso. apply Hk. apply (in_map fst) in H. exact H.
  Qed.

  Lemma slookup_none_filter m k : slookup m k = None -> filter (key_is k) m = [].
  Proof.
    induction m as [|[k0 v0] r IH]; simpl; [reflexivity|]. unfold key_is at 1. simpl.
    destruct (String.eqb k k0); [discriminate|auto].
  Qed.

  Lemma filter_key m k : NoDup (map fst m) ->
    filter (key_is k) m = match slookup m k with Some v => [(k, v)] | None => [] end.
  Proof.
    induction m as [|[k0 v0] r IH]; simpl; intros Hn; [reflexivity|].
    inversion Hn as [|? ? Hk Hr]; subst. unfold key_is at 1. simpl.
    destruct (String.eqb k k0) eqn:E.
    - apply String.eqb_eq in E. subst k0. f_equal.
      apply filter_none. intros [a b] Hin. unfold key_is. simpl.
      destruct (String.eqb k a) eqn:E; [|reflexivity]. apply String.eqb_eq in E. subst.
      exfalso. apply Hk. apply (in_map fst) in Hin. exact Hin.
    - auto.
  Qed.

  Lemma slookup_filter (p : str -> bool) m k :
    slookup (filter (fun kv => p (fst kv)) m) k = if p k then slookup m k else None.
  Proof.
    induction m as [|[k0 v0] r IH]; simpl; [now destruct (p k)|].
    destruct (p k0) eqn:P; simpl; rewrite IH; destruct (String.eqb_spec k k0) as [->|]; now rewrite ?P.
  Qed.

  (** [merged] is [build] over the flattened, normalised items of the layers ([merged_build]): a fold of [sset],
      so later items win and a look-up finds the first hit in the items read backwards ([slookup_build]) *)
  Definition build (items acc : lines) : lines := fold_left (fun acc kv => sset acc (fst kv) (snd kv)) items acc.

  Lemma slookup_app a b n :
    slookup (a ++ b)%list n = match slookup a n with Some v => Some v | None => slookup b n end.
  Proof. induction a as [|[k v] r IH]; simpl; [reflexivity|]. now destruct (String.eqb n k). Qed.

  Lemma slookup_build items n : forall acc,
    slookup (build items acc) n = match slookup (rev items) n with Some v => Some v | None => slookup acc n end.
  Proof.
    induction items as [|[k v] r IH]; intros acc; simpl; [reflexivity|].
    unfold build in *. rewrite IH, slookup_app, slookup_sset. simpl.
    destruct (slookup (rev r) n); [reflexivity|]. now destruct (String.eqb n k).
  Qed.

  Lemma NoDup_build items : forall acc, NoDup (map fst acc) -> NoDup (map fst (build items acc)).
  Proof.
    induction items as [|[k v] r IH]; intros acc H; simpl; [exact H|].
    apply IH. apply NoDup_sset. exact H.
  Qed.

  Definition norm_item (kv : str * val) : str * str := (ascii_lower (fst kv), pystr (snd kv)).
  Definition flat (ls : list hdict) : lines := map norm_item (concat ls).

  Lemma merged_build extra st : merged ostr extra st = build (flat (layers extra st)) [].
  Proof.
    unfold merged, build, flat, merge_layer. rewrite fold_left_map, fold_left_concat. reflexivity.
  Qed.

  Lemma flat_cons h r : flat (h :: r) = (map norm_item h ++ flat r)%list.
  Proof. unfold flat. simpl. apply map_app. Qed.

  Lemma NoDup_merged extra st : NoDup (map fst (merged ostr extra st)).
  Proof. rewrite merged_build. apply NoDup_build. constructor. Qed.

  (** every key of the merged dictionary is a lower-cased name *)
  Lemma merged_keys_lower extra st k : In k (map fst (merged ostr extra st)) -> ascii_lower k = k.
  Proof.
    intros ([k' v] & [= ->] & H)%in_map_iff. apply (In_slookup _ _ _ (NoDup_merged extra st)) in H.
    rewrite merged_build, slookup_build in H. destruct (slookup (rev _) k) as [v'|] eqn:E; [|discriminate].
    apply slookup_In, in_rev, in_map_iff in E as (kv & [= <- _] & _). apply ascii_lower_idem.
  Qed.

  Lemma layer_value h n :
    if defines h n
    then exists v, In v (variants_in h n) /\ slookup (rev (map norm_item h)) n = Some (pystr v)
    else slookup (rev (map norm_item h)) n = None.
  Proof.
    induction h as [|kv r IH]; [reflexivity|].
    unfold variants_in. simpl. rewrite slookup_app. simpl. fold (name_is n kv).
    destruct (defines r n).
    - rewrite orb_true_r. destruct IH as (v & Hv & ->). exists v. split; [|reflexivity].
      destruct (name_is n kv); [right|]; exact Hv.
    - rewrite orb_false_r, IH. destruct (name_is n kv); [|reflexivity].
      exists (snd kv). split; [left|]; reflexivity.
  Qed.

  Lemma last_defining_defines ls n h : last_defining ls n = Some h -> defines h n = true /\ In h ls.
  Proof.
    induction ls as [|h0 r IH]; simpl; [discriminate|].
    destruct (last_defining r n) as [h'|].
    - intros E. inversion E; subst. destruct (IH eq_refl). auto.
    - destruct (defines h0 n) eqn:D; [|discriminate]. intros E. inversion E; subst. auto.
  Qed.

  Lemma slookup_layers n : forall ls,
    match last_defining ls n with
    | Some h => exists v, In v (variants_in h n) /\ slookup (rev (flat ls)) n = Some (pystr v)
    | None => slookup (rev (flat ls)) n = None
    end.
  Proof.
    induction ls as [|h r IH]; simpl; [reflexivity|].
    rewrite flat_cons, rev_app_distr, slookup_app.
    destruct (last_defining r n) as [h'|].
    - destruct IH as (v & Hv & ->). eauto.
    - rewrite IH. pose proof (layer_value h n) as V. now destruct (defines h n).
  Qed.

  Lemma slookup_emit extra st n :
    slookup (emit_pure ostr extra st) n = if is_readonly n then None else slookup (rev (flat (layers extra st))) n.
  Proof.
    unfold emit_pure. rewrite (slookup_filter (fun k => negb (is_readonly k))), merged_build, slookup_build.
    destruct (is_readonly n); [reflexivity|]. now destruct (slookup (rev _) n).
  Qed.

  Lemma emit_NoDup extra st : NoDup (map fst (emit_pure ostr extra st)).
  Proof. unfold emit_pure. rewrite (map_fst_filter (fun k => negb (is_readonly k))). apply NoDup_filter, NoDup_merged. Qed.

  Lemma emitted_at extra st n :
    filter (key_is n) (emit_pure ostr extra st) =
    match slookup (emit_pure ostr extra st) n with Some v => [(n, v)] | None => [] end.
  Proof. apply filter_key, emit_NoDup. Qed.

  Lemma recency extra st n h :
    is_readonly n = false -> last_defining (layers extra st) n = Some h ->
    exists v, In v (variants_in h n) /\ filter (key_is n) (emit_pure ostr extra st) = [(n, pystr v)].
  Proof.
    intros Hro Hl. pose proof (slookup_layers n (layers extra st)) as M. rewrite Hl in M. destruct M as (v & Hv & M).
    exists v. split; [exact Hv|]. now rewrite emitted_at, slookup_emit, Hro, M.
  Qed.

  Lemma nothing_else extra st k v :
    In (k, v) (emit_pure ostr extra st) ->
    is_readonly k = false /\ ascii_lower k = k /\
    exists h, last_defining (layers extra st) k = Some h /\ exists v', In v' (variants_in h k) /\ v = pystr v'.
  Proof.
    intros H. pose proof (In_slookup _ _ _ (emit_NoDup extra st) H) as E. rewrite slookup_emit in E.
    destruct (is_readonly k); [discriminate|]. split; [reflexivity|]. split.
    - apply (merged_keys_lower extra st), (in_map fst _ (k, v)). unfold emit_pure in H. now apply filter_In in H.
    - pose proof (slookup_layers k (layers extra st)) as M. destruct (last_defining (layers extra st) k) as [h|]; [|congruence].
      destruct M as (v' & Hv & M). exists h. split; [reflexivity|]. exists v'. split; [exact Hv|]. congruence.
  Qed.

  Lemma line_is_key_on_emit extra st n :
    filter (line_is n) (emit_pure ostr extra st) = filter (key_is n) (emit_pure ostr extra st).
  Proof.
    apply filter_ext_in. intros [k v] Hin. unfold line_is, key_is. simpl.
    destruct (nothing_else extra st k v Hin) as [_ [E _]]. rewrite E. reflexivity.
  Qed.

  Definition content_length (body : str) : str := z_to_str (Z.of_nat (String.length body)).

  Lemma fixed_headers ct ua body extra st l :
    send_content_headers ostr ct ua body extra st = Ok l ->
    filter (line_is "content-type") l = [("Content-Type", ct)] /\
    filter (line_is "content-length") l = [("Content-Length", content_length body)] /\
    (last_defining (layers extra st) "user-agent" = None -> filter (line_is "user-agent") l = [("User-Agent", ua)]) /\
    (forall h, last_defining (layers extra st) "user-agent" = Some h ->
       exists v, In v (variants_in h "user-agent") /\ filter (line_is "user-agent") l = [("user-agent", pystr v)]).
  Proof.
    unfold send_content_headers, emit. destruct (names_ascii (layers extra st)); cbn [bind]; [|discriminate].
    intros [= <-]. fold (content_length body). unfold has_key.
    pose proof (slookup_layers "user-agent" (layers extra st)) as M.
    repeat split; [| |intros Hl|intros h Hl]; rewrite filter_framed, line_is_key_on_emit, emitted_at, !slookup_emit.
    (* a protected name is not emitted; whether or not the User-Agent fallback is there, it is not named so *)
    1, 2: now destruct (slookup _ "user-agent").
    - rewrite Hl in M. now rewrite M.
    - rewrite Hl in M. destruct M as (v & Hv & ->). now exists v.
  Qed.

End Emit.

Lemma hdict_eq_refl h : hdict_eq h h = true.
Proof. unfold hdict_eq. rewrite val_eqb_refl. reflexivity. Qed.

Lemma pop_push st h : pop_headers (push_headers st h) h = Ok st.
Proof.
  unfold pop_headers, push_headers. rewrite rev_app_distr. simpl. rewrite hdict_eq_refl, rev_involutive. reflexivity.
Qed.

(** invariant: the stack is the initial stack followed by the dictionaries of the open blocks, outermost first *)
Lemma run_invariant ops : forall st0 open,
  run ops (mkH (st0 ++ rev open) open) = Ok (mkH (st0 ++ rev (open_after ops open)) (open_after ops open)).
Proof.
  induction ops as [|o rest IH]; intros st0 open; [reflexivity|].
  destruct o as [h|o|b]; cbn [run step bind open_after h_stack h_open].
  - unfold push_headers. rewrite <- app_assoc. exact (IH st0 (h :: open)).
  - destruct open as [|h r].
    + cbn [bind]. exact (IH st0 []).
    + cbn [rev]. rewrite app_assoc. fold (push_headers (st0 ++ rev r) h). rewrite pop_push. cbn [bind]. exact (IH st0 r).
  - exact (IH st0 open).
Qed.

Lemma nested_blocks ops st0 :
  run ops (mkH st0 []) = Ok (mkH (st0 ++ rev (open_after ops [])) (open_after ops [])).
Proof. pose proof (run_invariant ops st0 []) as H. simpl in H. rewrite app_nil_r in H. exact H. Qed.

Lemma balanced_restores ops st0 :
  open_after ops [] = [] -> run ops (mkH st0 []) = Ok (mkH st0 []).
Proof. intros H. rewrite nested_blocks, H. simpl. now rewrite app_nil_r. Qed.

Lemma open_after_app a b open : open_after (a ++ b) open = open_after b (open_after a open).
Proof.
  revert open. induction a as [|o r IH]; intros open; simpl; [reflexivity|].
  destruct o; apply IH.
Qed.

(** a balanced body leaves an enclosing block open (or, if it contains an unmatched leave, closes it) *)
Lemma open_after_enclosed ops : forall open x,
  open_after ops open = [] -> open_after ops (open ++ [x]) = [x] \/ open_after ops (open ++ [x]) = [].
Proof.
  induction ops as [|op r IH]; intros open x H; simpl in *.
  - subst. left. reflexivity.
  - destruct op as [h'|o'|b'].
    + apply (IH (h' :: open) x H).
    + destruct open as [|a t]; simpl in *.
      * right. exact H.
      * apply (IH t x H).
    + apply (IH open x H).
Qed.
