(** * FutureInvN — counting the notification attempts and their arguments *)
From Coq Require Import List Bool Arith Lia.
From RecordUpdate Require Import RecordSet.
From JR Require Import Sched Future FutureInv.

(* fx i, nx s i: the calls of callback i made by execute(), and their number; fr i, nr s i: those made by
   set_callback() (not the [nr] of Model/Future.v's c16_run, a number of registrars) *)
Definition is_tx (t : thread) : bool := match t with TX => true | _ => false end.
Definition fx (i : nat) (k : call) : bool := Nat.eqb (c_cb k) i && is_tx (c_by k).
Definition fr (i : nat) (k : call) : bool := Nat.eqb (c_cb k) i && negb (is_tx (c_by k)).
Definition nx (s : st) (i : nat) : nat := length (filter (fx i) (calls s)).
Definition nr (s : st) (i : nat) : nat := length (filter (fr i) (calls s)).

Lemma ncalls_split : forall s i, ncalls s i = nx s i + nr s i.
Proof.
  intros s i; unfold ncalls, nx, nr. induction (calls s) as [|k l IH]; [reflexivity|].
  unfold fx, fr in *. simpl. destruct (Nat.eqb (c_cb k) i); simpl; [|exact IH].
  destruct (is_tx (c_by k)); simpl; lia.
Qed.

(* the counts read the call log only, so the equations hold of any state [s'] with the log of the notification;
   [w] is whom [notify] calls: nobody, if execute() saved no callback *)
Lemma nx_notify : forall c t w x s s' i, calls s' = calls (notify c t w x s) ->
  nx s' i = (if opt_is w i && is_tx t then 1 else 0) + nx s i.
Proof.
  intros c t [k|] x s s' i E; unfold nx, fx; rewrite E; [rewrite nf_calls_some | rewrite nf_calls_none]; [|reflexivity].
  cbn [filter c_cb c_by opt_is]. destruct (_ && _); reflexivity.
Qed.

Lemma nr_notify : forall c t w x s s' i, calls s' = calls (notify c t w x s) ->
  nr s' i = (if opt_is w i && negb (is_tx t) then 1 else 0) + nr s i.
Proof.
  intros c t [k|] x s s' i E; unfold nr, fr; rewrite E; [rewrite nf_calls_some | rewrite nf_calls_none]; [|reflexivity].
  cbn [filter c_cb c_by opt_is]. destruct (_ && _); reflexivity.
Qed.

Section Inv.
Variable c : cfg.

Definition good_call (k : call) : Prop :=
  c_res k = out_data (body c) /\ c_exc k = out_exc (body c) /\ c_extra k = Some (c_cb k) /\
  (c_by k = TX \/ c_by k = TR (c_cb k)).

Definition N1 s := forall i, nx s i = if x_end (xp s) && opt_is (xcb s) i then 1 else 0.
Definition N2 s := forall i, nr s i = if r_end (rp s i) && rcomp s i then 1 else 0.
Definition N3 s := Forall good_call (calls s).
Definition N4 s := logged s = length (filter (fun k => raises (rkind c (c_cb k))) (calls s)).
Definition InvN s := N1 s /\ N2 s /\ N3 s /\ N4 s.

(** the arguments of a notification made once the executor is out of its region, and the log *)
Lemma N34_notify : forall s t w x, InvA c s -> x_out (xp s) = true ->
  (forall k, w = Some k -> x = Some k /\ (t = TX \/ t = TR k)) ->
  N3 s -> N4 s -> N3 (notify c t w x s) /\ N4 (notify c t w x s).
Proof.
  intros s t [k|] x A Ho Hw M3 M4; [|split; assumption]. destruct (Hw k eq_refl) as (-> & Ht).
  unfold N3, N4 in *. cbn [notify calls logged set filter c_cb]. split.
  - constructor; [|exact M3]. destruct A as (_ & _ & _ & D1' & D2' & _). unfold D1, D2 in *.
    unfold good_call; cbn [c_cb c_by c_res c_exc c_extra]. rewrite D1', D2'. destruct (xp s); try discriminate Ho; auto.
  - rewrite M4. destruct (raises _); reflexivity.
Qed.

Lemma N_x : forall s s', InvA c s -> InvB s -> InvN s -> step_x c s = Some s' -> InvN s'.
Proof.
  intros s s' A B (N1' & N2' & N3' & N4') H.
  unfold step_x in H. destruct (xp s) eqn:Ex; try discriminate H; unstep H.
  10: { (* x_notify: the saved callback, if any, gets its own extra (Jxpair) *)
    rewrite notify_writes. destruct B as (_ & _ & _ & _ & _ & _ & _ & Jxp & _).
    destruct (N34_notify s TX (xcb s) (xextra s) A) as (M3 & M4);
      [rewrite Ex; reflexivity | intros k Ek; split; [apply Jxp; [rewrite Ex; reflexivity | exact Ek] | auto] | exact N3' | exact N4' |].
    unfold InvN, N1, N2 in *. conj; try assumption; intros i.
    - rewrite (nx_notify c TX (xcb s) (xextra s) s) by reflexivity. simp.
      rewrite andb_true_r, N1', Ex. destruct (opt_is (xcb s) i); reflexivity.
    - rewrite (nr_notify c TX (xcb s) (xextra s) s) by reflexivity. simp. rewrite andb_false_r. apply N2'. }
  (* the other transitions make no call: N1 is evaluated at the executor's pc *)
  all: unfold InvN, N1, N2 in *; conj; try assumption.
  all: intros i; pose proof (N1' i) as Hi; unfold nx in *; simp; rw; pcs; exact Hi.
Qed.

Lemma N_r : forall s k s', InvA c s -> InvB s -> InvN s -> step_r c k s = Some s' -> InvN s'.
Proof.
  intros s k s' A B (N1' & N2' & N3' & N4') H.
  unfold step_r in H. destruct (rp s k) eqn:Ek; try discriminate H; unstep H.
  6: { (* r_notify: k saw [completed] (Jnotify), so the executor is out of its region (Jrc) *)
    destruct B as (Jrc' & _ & _ & _ & _ & _ & _ & _ & Jn). pose proof (Jn k Ek) as Hc.
    destruct (N34_notify s (TR k) (Some k) (Some k) A (Jrc' k Hc)) as (M3 & M4); [intros ? [= <-]; auto | exact N3' | exact N4' |].
    unfold InvN, N1, N2 in *. conj; try assumption; intros i.
    - rewrite (nx_notify c (TR k) (Some k) (Some k) s) by reflexivity. simp. rewrite andb_false_r. apply N1'.
    - rewrite (nr_notify c (TR k) (Some k) (Some k) s) by reflexivity. simp. rewrite andb_true_r, N2'. cbn [opt_is].
      destruct (Nat.eq_dec i k) as [->|Hne].
      + rewrite Nat.eqb_refl, upd_same, Ek, Hc. reflexivity.
      + rewrite upd_other, (proj2 (Nat.eqb_neq k i)) by congruence. reflexivity. }
  (* the other transitions make no call: N2 is evaluated at k's pc *)
  all: unfold InvN, N1, N2 in *; conj; try assumption.
  all: intros i; pose proof (N2' i) as Hi; unfold nr in *; simp; who; rw; pcs; try exact Hi.
  (* r_unlock: k has made no call yet, and is not at R_end having seen [completed] *)
  rewrite Hi. destruct (rcomp s k); reflexivity.
Qed.
End Inv.
