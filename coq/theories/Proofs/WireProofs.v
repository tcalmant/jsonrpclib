(** WireProofs — the UTF-8 codec round trip; a body reassembled from any chunking (client target, response
    reads, server body loop); the two framing headers; ServerProxy.__init__ in closed form. *)
From JR Require Import Wire.
From JR Require HeadersProofs.   (* only for [ascii_lower_idem], a fact about Base/PyOps that is proved there *)
From Coq Require Import Lia ZifyBool DecimalString DecimalN.
Local Open Scope N_scope.
Local Open Scope list_scope.

Ltac step_if := match goal with |- context[if ?b then _ else _] =>
  first [replace b with true by lia | replace b with false by lia] end.

(** [c = 64 * q + r] with [r < 64]: all the decoder's range tests need to know of the divisions by 64 *)
Lemma split64 c : exists q r, c = 64 * q + r /\ r < 64 /\ c / 64 = q /\ c mod 64 = r.
Proof. exists (c / 64), (c mod 64). pose proof (N.div_mod' c 64). pose proof (N.mod_lt c 64). lia. Qed.

(** four length classes; with the quotients and remainders named ([split64]), every range test of the
    decoder is linear arithmetic *)
Lemma dec_enc1 c rest : is_scalar c = true ->
  utf8_dec (enc1 c ++ rest) = cons_ok c (utf8_dec rest).
Proof.
  intros Hs. unfold is_scalar in Hs. unfold enc1.
  destruct (split64 c) as (q1 & r1 & E1 & L1 & -> & ->).
  destruct (split64 q1) as (q2 & r2 & E2 & L2 & -> & ->).
  destruct (split64 q2) as (q3 & r3 & E3 & L3 & -> & ->).
  destruct (c <? 128) eqn:H1; [cbn [List.app utf8_dec]; now rewrite H1|].
  destruct (c <? 2048) eqn:H2; [|destruct (c <? 65536) eqn:H3].
  all: cbn [List.app utf8_dec]; unfold contb; repeat step_if.
  all: match goal with |- cons_ok ?e _ = _ => replace e with c by lia end; reflexivity.
Qed.

Lemma dec_enc_app s rest : forallb is_scalar s = true ->
  utf8_dec (utf8_enc s ++ rest) = match utf8_dec rest with Ok t => Ok (s ++ t) | Raise e => Raise e end.
Proof.
  induction s as [|c s IH]; intros Hs.
  - cbn. now destruct (utf8_dec rest).
  - cbn [forallb] in Hs. apply andb_true_iff in Hs as [Hc Hs].
    unfold utf8_enc. cbn [flat_map]. rewrite <- app_assoc. rewrite (dec_enc1 _ _ Hc).
    fold (utf8_enc s). rewrite (IH Hs). now destruct (utf8_dec rest).
Qed.

Theorem utf8_roundtrip s : forallb is_scalar s = true -> utf8_dec (utf8_enc s) = Ok s.
Proof.
  intros Hs. rewrite <- (app_nil_r (utf8_enc s)). rewrite (dec_enc_app _ _ Hs). cbn. now rewrite app_nil_r.
Qed.

Lemma to_bytes_str s : to_bytes (PStr s) = if forallb is_scalar s then Ok (utf8_enc s) else Raise enc_err.
Proof. reflexivity. Qed.

Lemma N_of_str_of_N n : N_of_str (str_of_N n) = Some n.
Proof.
  unfold N_of_str, str_of_N. rewrite NilEmpty.usu. cbn. now rewrite DecimalN.Unsigned.of_to.
Qed.

Lemma fold_feed chunks acc : fold_left target_feed chunks acc = acc ++ chunks.
Proof.
  revert acc. induction chunks as [|c r IH]; intros acc; cbn.
  - now rewrite app_nil_r.
  - rewrite IH. unfold target_feed. now rewrite <- app_assoc.
Qed.

Lemma target_close_whole data : target_close data = decode_whole (concat data).
Proof. destruct data; reflexivity. Qed.

Theorem client_reassembly chunks :
  target_close (fold_left target_feed chunks target_init) = decode_whole (concat chunks).
Proof. now rewrite fold_feed, target_close_whole. Qed.

Lemma decode_whole_valid b s : utf8_dec b = Ok s -> decode_whole b = PStr s.
Proof. intros H. unfold decode_whole. cbn. now rewrite H. Qed.

Lemma takeN_firstn {A} (l : list A) : forall n, takeN n l = firstn (N.to_nat n) l.
Proof.
  induction l as [|x r IH]; intros n; cbn [takeN].
  - now rewrite firstn_nil.
  - destruct (n =? 0) eqn:E.
    + apply N.eqb_eq in E. subst. reflexivity.
    + replace (N.to_nat n) with (S (N.to_nat (N.pred n))) by lia. cbn [firstn]. now rewrite IH.
Qed.

Lemma dropN_skipn {A} (l : list A) : forall n, dropN n l = skipn (N.to_nat n) l.
Proof.
  induction l as [|x r IH]; intros n; cbn [dropN].
  - now rewrite skipn_nil.
  - destruct (n =? 0) eqn:E.
    + apply N.eqb_eq in E. subst. reflexivity.
    + replace (N.to_nat n) with (S (N.to_nat (N.pred n))) by lia. cbn [skipn]. now rewrite IH.
Qed.

Lemma takeN_dropN {A} n (l : list A) : takeN n l ++ dropN n l = l.
Proof. rewrite takeN_firstn, dropN_skipn. apply firstn_skipn. Qed.

Lemma blen_takeN n (l : bytes) : blen (takeN n l) = N.min n (blen l).
Proof. unfold blen. rewrite takeN_firstn, firstn_length. lia. Qed.

Lemma takeN_all (l : bytes) : takeN (blen l) l = l.
Proof. unfold blen. rewrite takeN_firstn. replace (N.to_nat (N.of_nat (length l))) with (length l) by lia. apply firstn_all. Qed.

Lemma read_all_concat : forall fuel amt sizes s,
  (length s <= length fuel)%nat -> concat (read_all fuel amt sizes s) = s.
Proof.
  induction fuel as [|f fuel IH]; intros amt sizes s Hl.
  - destruct s; [reflexivity | cbn in Hl; lia].
  - destruct s as [|x r]; [reflexivity|].
    cbn [read_all]. set (want := N.max 1 _). cbn [concat].
    rewrite IH.
    + apply takeN_dropN.
    + assert (Hw : 1 <= want) by (unfold want; lia).
      rewrite dropN_skipn, skipn_length. cbn [length] in *. lia.
Qed.

Theorem parse_stream_whole sizes b : parse_stream sizes (Ok b) = Ok (decode_whole b).
Proof. unfold parse_stream. cbn [bind]. now rewrite client_reassembly, read_all_concat by lia. Qed.

Section GzipProofs.
  Variable gz : bytes -> bytes.
  Variable gunz : bytes -> res bytes.
  Hypothesis gunz_gz : forall b, gunz (gz b) = Ok b.

  Theorem gzip_decodes sizes b s :
    utf8_dec b = Ok s -> parse_response gunz true sizes (gz b) = Ok (PStr s).
  Proof.
    intros H. unfold parse_response. now rewrite gunz_gz, parse_stream_whole, (decode_whole_valid b s).
  Qed.
End GzipProofs.

Lemma hdr_values_app n a b : hdr_values n (a ++ b) = hdr_values n a ++ hdr_values n b.
Proof. unfold hdr_values. now rewrite filter_app, map_app. Qed.

Lemma hdr_values_cons n k v r :
  hdr_values n ((k, v) :: r) = if String.eqb (ascii_lower k) n then v :: hdr_values n r else hdr_values n r.
Proof. unfold hdr_values. cbn [filter fst snd]. destruct (String.eqb (ascii_lower k) n); reflexivity. Qed.

Lemma emit_additional_no_readonly custom name :
  readonly name = true -> hdr_values name (emit_additional custom) = [].
Proof.
  intros Hn. unfold hdr_values, emit_additional.
  induction custom as [|[k v] r IH]; [reflexivity|].
  cbn [map filter fst snd].
  destruct (readonly (ascii_lower k)) eqn:Hr; cbn [negb].
  - exact IH.
  - cbn [filter fst snd]. rewrite HeadersProofs.ascii_lower_idem.
    destruct (String.eqb (ascii_lower k) name) eqn:E.
    + apply String.eqb_eq in E. congruence.
    + exact IH.
Qed.

Theorem send_content_framing ct ua custom body hs b :
  send_content ct ua custom body = Ok (hs, b) ->
  to_bytes body = Ok b
  /\ hdr_values "content-length" hs = [str_of_N (blen b)]
  /\ N_of_str (str_of_N (blen b)) = Some (blen b)
  /\ hdr_values "content-type" hs = [ct].
Proof.
  unfold send_content. destruct (to_bytes body) as [b'|e]; cbn [bind]; [|discriminate].
  intros [= <- <-]. rewrite !hdr_values_cons. simpl (String.eqb _ _). cbv iota.
  (* after the two framing lines: the additional lines have no protected name, nor has the User-Agent fallback *)
  rewrite !hdr_values_app, !emit_additional_no_readonly by reflexivity.
  destruct (existsb _ _); repeat split; apply N_of_str_of_N.
Qed.

Theorem reply_framing status ct response r :
  reply_of status ct response = Ok r ->
  to_bytes (PStr response) = Ok (rp_body r)
  /\ hdr_values "content-length" (rp_headers r) = [str_of_N (blen (rp_body r))]
  /\ N_of_str (str_of_N (blen (rp_body r))) = Some (blen (rp_body r))
  /\ hdr_values "content-type" (rp_headers r) = [ct].
Proof.
  unfold reply_of. destruct (to_bytes (PStr response)) as [b|e]; cbn [bind]; [|discriminate].
  intros [= <-]. cbn. repeat split. apply N_of_str_of_N.
Qed.

Lemma do_post_reply M ct clen f dispatch fault seen r :
  do_post M ct clen f dispatch fault = (seen, Ok r) -> exists st t, reply_of st ct t = Ok r.
Proof.
  unfold do_post. intros H.
  destruct (server_body M clen f) as [data|e].
  - destruct (dispatch data) as [[x|]|e].
    + exists 200, x. congruence.
    + exists 200, []. congruence.
    + exists 500, fault. congruence.
  - exists 500, fault. congruence.
Qed.

Lemma prefixb_inv p : forall s, prefixb p s = true -> exists r, s = (p ++ r)%string.
Proof.
  induction p as [|a p IH]; intros [|b s]; cbn; try discriminate; eauto.
  intros [->%Ascii.eqb_eq [r ->]%IH]%andb_true_iff. now exists r.
Qed.

Lemma proxy_init_eq scheme path query tr :
  proxy_init scheme path query tr =
  if accepted scheme tr
  then Ok {| px_transport := if tr then TCustom else if prefixb "unix+" scheme then TUnix
                             else if String.eqb scheme "https" then TSafe else THttp;
             px_handler := if prefixb "unix+" scheme then "/" else if String.eqb path "" then "/" else path;
             px_query := query |}
  else Raise EOS.
Proof.
  unfold accepted, proxy_init. destruct (prefixb "unix+" scheme) eqn:Hp.
  - apply prefixb_inv in Hp as [r ->]. cbn [drop_chars String.eqb append Ascii.eqb Bool.eqb orb andb].
    destruct (String.eqb r "http"), (String.eqb r "https"), tr; reflexivity.
  - (* a scheme without the prefix is neither of the unix+ ones *)
    destruct (String.eqb_spec scheme "unix+http") as [->|_]; [discriminate Hp|].
    destruct (String.eqb_spec scheme "unix+https") as [->|_]; [discriminate Hp|].
    destruct (String.eqb scheme "http"), (String.eqb scheme "https"), tr; reflexivity.
Qed.

Lemma append_nil_r (s : string) : (s ++ "")%string = s.
Proof. induction s; cbn; congruence. Qed.

Lemma concat_snoc (l : list bytes) (x : bytes) : concat (l ++ [x]) = concat l ++ x.
Proof. rewrite concat_app. cbn. now rewrite app_nil_r. Qed.

Lemma blen_app (a b : bytes) : blen (a ++ b) = blen a + blen b.
Proof. unfold blen. rewrite app_length. lia. Qed.

Lemma takeN_app (a b : bytes) : takeN (blen a) (a ++ b) = a.
Proof.
  unfold blen. rewrite takeN_firstn, Nnat.Nat2N.id, firstn_app, firstn_all, Nat.sub_diag. apply app_nil_r.
Qed.

(** a read returns a prefix of what is left, of at most [k] bytes; it is not empty when there is something left
    to read and neither [k] nor the cap is 0 *)
Lemma rfile_read_split k (s : bytes) caps :
  exists a b, rfile_read k (s, caps) = (a, (b, tl caps)) /\ s = a ++ b /\ blen a <= k
    /\ (0 < k -> forallb (fun c => 0 <? c) caps = true -> 0 < blen s -> 0 < blen a).
Proof.
  unfold rfile_read. set (n := match caps with [] => k | c :: _ => N.min k c end).
  exists (takeN n s), (dropN n s). split; [reflexivity|]. split; [symmetry; apply takeN_dropN|].
  rewrite blen_takeN. unfold n. destruct caps as [|c r]; cbn [forallb]; [lia|]. rewrite andb_true_iff. lia.
Qed.

Lemma forallb_tl {A} (p : A -> bool) l : forallb p l = true -> forallb p (tl l) = true.
Proof. destruct l; [reflexivity|]. cbn. now intros [_ H]%andb_true_iff. Qed.

(** the loop never runs out of fuel and reads a prefix [a] of the stream; the first [rem] bytes when no read
    comes back empty (positive chunk size and caps, long enough stream) *)
Lemma body_loop_reads : forall fuel M rem (s : bytes) caps chunks,
  (length s < length fuel)%nat ->
  exists chunks' a b, body_loop fuel M rem (s, caps) chunks = Ok chunks' /\ s = a ++ b
    /\ concat chunks' = concat chunks ++ a /\ blen a <= rem
    /\ (0 < M -> forallb (fun c => 0 <? c) caps = true -> rem <= blen s -> blen a = rem).
Proof.
  induction fuel as [|x fuel IH]; intros M rem s caps chunks Hf; [cbn in Hf; lia|].
  cbn [body_loop]. destruct (rem =? 0) eqn:E.
  { exists chunks, [], s. rewrite app_nil_r. repeat split; cbn; lia. }
  apply N.eqb_neq in E.
  destruct (rfile_read_split (N.min rem M) s caps) as (a1 & b1 & -> & -> & L & P).
  rewrite blen_app. destruct a1 as [|y r1].
  { exists chunks, [], b1. rewrite app_nil_r. repeat split; try (cbn; lia). cbn in P. lia. }
  set (a1 := y :: r1) in *. assert (Hpos : 0 < blen a1) by (cbn; lia).
  destruct (IH M (rem - blen a1) b1 (tl caps) (chunks ++ [a1])) as (c' & a & b & H1 & -> & H3 & H4 & H5).
  { rewrite app_length in Hf. unfold blen in Hpos. cbn [length] in Hf. lia. }
  exists c', (a1 ++ a), b. split; [exact H1|]. split; [apply app_assoc|]. split; [|split].
  - now rewrite H3, concat_snoc, app_assoc.
  - rewrite blen_app. lia.
  - intros HM Hc Hr. rewrite !blen_app in *. rewrite H5; auto using forallb_tl; lia.
Qed.

Lemma server_body_reads M clen s caps :
  exists n, n <= clen
    /\ (0 < M -> forallb (fun c => 0 <? c) caps = true -> clen <= blen s -> n = clen)
    /\ server_body M clen (s, caps) = utf8_dec (takeN n s).
Proof.
  unfold server_body. cbn [fst].
  destruct (body_loop_reads (0 :: s) M clen s caps []) as (c' & a & b & H1 & -> & H2 & H3 & H4); [cbn; lia|].
  exists (blen a). rewrite H1, takeN_app. cbn [bind from_bytes]. now rewrite H2.
Qed.

Theorem server_reassembly M s caps :
  0 < M -> forallb (fun c => 0 <? c) caps = true ->
  server_body M (blen s) (s, caps) = utf8_dec s.
Proof.
  intros HM Hcaps. destruct (server_body_reads M (blen s) s caps) as (n & _ & H & ->).
  rewrite H by (auto; lia). now rewrite takeN_all.
Qed.
