(** C06 rests on one equation: past the version test, check_for_errors raises [raise_for_error] of the
    error member exactly when that member is truthy ([check_envelope], [check_error_dict]); the
    statements of Props/C06.v read the classification off [raise_for_error]. *)
From JR Require Import Client.
From Coq Require Import Lia.

Lemma dget_some_nonempty m k v : dget m k = Some v -> m <> [].
Proof. destruct m; [discriminate | congruence]. Qed.

Lemma dhas_of_dget m k v : dget m k = Some v -> dhas m k = true.
Proof. unfold dhas; now intros ->. Qed.

Lemma check_envelope m :
  envelope_ok m = true -> m <> [] ->
  check_for_errors (VDict m) =
  if negb (dhas m "result") && negb (dhas m "error") then Raise EValue
  else match dget m "error" with
       | Some e => if truthy e then Raise (raise_for_error e) else Ok (VDict m)
       | None => Ok (VDict m)
       end.
Proof.
  intros Henv Hm. unfold check_for_errors, envelope_ok in *.
  destruct m; [contradiction|]. cbn [truthy negb].
  destruct (dget _ "jsonrpc") as [j|]; cbn [bind]; [|reflexivity].
  destruct (py_float j) as [f|]; [|discriminate]. cbn [bind].
  apply negb_true_iff in Henv. now rewrite Henv.
Qed.

Lemma check_error_dict {m e} :
  envelope_ok m = true -> dget m "error" = Some e -> truthy e = true ->
  check_for_errors (VDict m) = Raise (raise_for_error e).
Proof.
  intros Henv He Ht. rewrite check_envelope by eauto using dget_some_nonempty.
  now rewrite (dhas_of_dget _ _ _ He), andb_false_r, He, Ht.
Qed.

Lemma raise_for_error_is_protocol e : is_protocol_error (raise_for_error e) = true.
Proof.
  destruct e; try reflexivity. cbn [raise_for_error].
  destruct (dget m "code") as [c|].
  - destruct (is_numeric c && in_reserved_range c); reflexivity.
  - destruct m as [|[k v] [|]]; reflexivity.
Qed.

Theorem predefined_range m em c :
  envelope_ok m = true -> dget m "error" = Some (VDict em) -> truthy (VDict em) = true ->
  dget em "code" = Some c -> is_numeric c = true -> in_reserved_range c = true ->
  check_for_errors (VDict m) = Raise (EProtocol (VTuple [c; error_message em])).
Proof.
  intros Henv He Ht Hc Hn Hr. rewrite (check_error_dict Henv He Ht).
  cbn [raise_for_error]. now rewrite Hc, Hn, Hr.
Qed.

Theorem in_reserved_range_int z :
  in_reserved_range (VInt z) = true <-> (-32700 <= z <= -32000).
Proof.
  unfold in_reserved_range, rat_leb, rat_of_Z; cbn. rewrite andb_true_iff, !Z.leb_le. lia.
Qed.

Lemma in_reserved_range_non_numeric c : num_of c = None -> in_reserved_range c = false.
Proof. unfold in_reserved_range. now intros ->. Qed.
