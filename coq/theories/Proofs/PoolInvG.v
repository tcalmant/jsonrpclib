(** start() and stop(), part 3: no sentinel in a running pool (I_nosent), and start() leaves at least min_threads
    workers (I_min), given that a worker retires only above min_threads (I_retire, defined here and read off I_ret of
    PoolInvH). *)
From JR Require Import PoolInvDefs PoolInvA PoolInvE PoolInvF.

Definition nonclean_exit (x : wst) : bool :=
  match wpc x with
  | WSentDone => true
  | WFLock | WFRemove | WFNbDec => negb (wclean x)
  | _ => false
  end.

Definition I_nosent (s : st) : Prop :=
  stopped s = false ->
  (forall i, In i (q s) -> is_task i = true) /\ (forall w, nonclean_exit (ws s w) = false).

Lemma nosent_frame s s' :
  (stopped s' = false -> stopped s = false) -> (forall i, In i (q s') -> In i (q s) \/ is_task i = true) ->
  (forall w, nonclean_exit (ws s' w) = true -> nonclean_exit (ws s w) = true) ->
  I_nosent s -> I_nosent s'.
Proof.
  intros Hst Hq Hw Hns Hst'. destruct (Hns (Hst Hst')) as [Hk Hd]. split.
  - intros i Hi. destruct (Hq i Hi); auto.
  - intros w. destruct (nonclean_exit (ws s' w)) eqn:E; [|reflexivity]. rewrite <- (Hd w). symmetry. exact (Hw w E).
Qed.

Lemma P_nosent {s t f s'} :
  I_ctl s -> I_wf s -> I_flag s -> I_quiet s -> I_nosent s -> step s t f = Some s' -> I_nosent s'.
Proof.
  intros Hctl Hwf Hfl Hqt Hns H.
  destruct (step_Step H) as [w l h cl s1 Ew HS | c l p jc s1 Ec HS].
  - specialize (Hwf w). rewrite Ew in Hwf.
    destruct HS.
    all: try solve [apply (nosent_frame s); simp;
                    [exact id | auto | intros w'; apply (upd_keeps (fun x => nonclean_exit x = true)); rewrite Ew; (discriminate || exact id) | exact Hns]].
    + (* WLoop sees the stop flag *)
      intros Hst'. simp. congruence.
    + (* WGet takes a task *)
      apply (nosent_frame s); simp; [exact id | | intros w'; apply (upd_keeps (fun x => nonclean_exit x = true)); discriminate | exact Hns].
      intros i Hi. left. rewrite Hq. right. exact Hi.
    + (* WGet takes a sentinel: there is none while the pool runs *)
      intros Hst'. exfalso. destruct (Hns Hst') as [Hk _]. specialize (Hk ISent). rewrite Hq in Hk. discriminate Hk. left. reflexivity.
    + (* WSentDone: the worker held a sentinel *)
      intros Hst'. exfalso. destruct (Hns Hst') as [_ Hd]. specialize (Hd w). rewrite Ew in Hd. discriminate.
    + (* WUnlock3R: the retiring worker has set its clean flag *)
      apply (nosent_frame s); simp; [exact id | auto | | exact Hns].
      intros w'. apply (upd_keeps (fun x => nonclean_exit x = true)). unfold nonclean_exit, wf_w in *. simp. rewrite Hwf. discriminate.
  - destruct HS.
    all: try solve [apply (nosent_frame s); simp;
                    [exact id || discriminate | auto | intros w'; first [exact id | apply (upd_keeps (fun x => nonclean_exit x = true)); discriminate] | exact Hns]].
    (* CSPPut, CCLGet write the queue inside stop(), where the stop flag is set *)
    all: try solve [rewrite (ctl_only s c Hctl) in Ec by (rewrite Ec; reflexivity);
                    destruct (proj1 Hfl) as [Hst _]; [unfold ctl; rewrite Ec; reflexivity|]; intros Hst'; simp; congruence].
    + (* CEPut: what is put is a task *)
      apply (nosent_frame s); simp; [exact id | | auto | exact Hns].
      intros i Hi. apply in_app_or in Hi as [Hi|[<-|[]]]; [left; exact Hi | right; reflexivity].
    + (* CSTClear: start() finds a quiet pool *)
      rewrite (ctl_only s c Hctl) in Ec by (rewrite Ec; reflexivity).
      assert (E0 : ctl s = CSTClear) by (unfold ctl; rewrite Ec; reflexivity).
      destruct Hfl as (_ & _ & _ & _ & F5 & _). destruct (Hqt (F5 E0)) as [Hd Hk]; [rewrite E0; reflexivity|].
      intros _. simp. split; [exact Hk|]. intros w'. specialize (Hd w'). unfold alive, nonclean_exit in *. destruct (wpc (ws s w')); (discriminate || reflexivity).
Qed.

(** the field of Inv2; I_ret (PoolInvH, which imports this file for [need]) says more and is what is preserved *)
Definition I_retire (s : st) : Prop := forall w, wpc (ws s w) = WNbDec -> minT s < nb_threads s.

(** [need mn l]: the __start_thread calls that start(), at label [l], still owes ([kneed_pre] / [kneed_post]: inside a
    call, before / after nb_threads += 1).  [mn] matters at CSTQsize only, where the backlog is not read yet: I_min takes
    [minT s] there, the growth claim (PoolInvH, [need 0]) is suspended at that one label. *)
Definition kneed_pre (k : kont) : Z :=
  match k with KStartA a b => Z.of_nat a + Z.of_nat b + 1 | KStartB b => Z.of_nat b + 1 | KEnq => 0 end.
Definition kneed_post (k : kont) : Z :=
  match k with KStartA a b => Z.of_nat a + Z.of_nat b | KStartB b => Z.of_nat b | KEnq => 0 end.
Definition need (mn : Z) (l : clabel) : Z :=
  match l with
  | CSTQsize => mn
  | CSTLoopA a b => Z.of_nat a + Z.of_nat b
  | CSTLoopB b => Z.of_nat b
  | CSLock k | CSTest k | CSNbInc k => kneed_pre k
  | CSTStart k _ | CSAppend k _ | CSUnlock k => kneed_post k
  | _ => 0
  end.

(** the two loop bounds of start() (CSTQsize): a thread for each task of the backlog n, up to max_threads, then as many
    as min_threads still asks *)
Lemma start_bounds {mx mn n a b} : mn <= mx ->
  (if mx <? n then (mx, 0) else if n <? mn then (n, mn - n) else (n, 0)) = (a, b) -> a = Z.min mx n /\ b = Z.max 0 (mn - a).
Proof. intros Hm. destruct (Z.ltb_spec mx n); [|destruct (Z.ltb_spec n mn)]; intros E; injection E as <- <-; lia. Qed.

Definition I_min (s : st) : Prop :=
  (start_region (ctl s) = true -> minT s <= nb_threads s + need (minT s) (ctl s)) /\
  (start_done s = true -> minT s <= nb_threads s).

Lemma need_zero l : start_region l = false -> need 0 l = 0.
Proof. destruct l; cbn; try reflexivity; try discriminate; destruct k; cbn; try reflexivity; discriminate. Qed.
Lemma need_nonneg mn l : 0 <= mn -> 0 <= need mn l.
Proof. intros H. destruct l; cbn; try lia; destruct k; cbn; lia. Qed.
Lemma need_kret mn k : need mn (kret k) = kneed_post k.
Proof. destruct k; reflexivity. Qed.
Lemma start_region_kret k : start_region (kret k) = lifecycle_k k.
Proof. destruct k; reflexivity. Qed.

(** the threads that exist plus those start() has still to create do not get fewer *)
Lemma min_frame s s' : minT s' = minT s ->
  (start_region (ctl s') = true ->
   start_region (ctl s) = true /\ nb_threads s + need (minT s) (ctl s) <= nb_threads s' + need (minT s) (ctl s')) ->
  (start_done s' = true -> start_done s = true /\ nb_threads s <= nb_threads s') ->
  I_min s -> I_min s'.
Proof.
  intros Em H1 H2 [M1 M2]. unfold I_min. rewrite Em. split.
  - intros R. destruct (H1 R) as [R0 Hle]. specialize (M1 R0). lia.
  - intros D. destruct (H2 D) as [D0 Hle]. specialize (M2 D0). lia.
Qed.

Lemma P_min {s t f s'} :
  I_ctl s -> I_cfg s -> I_nb s -> I_flag s -> I_nosent s -> I_retire s -> I_min s ->
  step s t f = Some s' -> I_min s'.
Proof.
  intros Hctl Hcfg Hnb Hfl Hns Hrt Hmin H. pose proof Hmin as [M1 M2]. pose proof Hfl as (_ & F2 & _ & F4 & _).
  assert (Hnn : 0 <= nb_threads s) by (unfold I_nb in Hnb; lia).
  destruct Hcfg as (_ & Hc2 & Hc3).
  destruct (step_Step H) as [w l h cl s1 Ew HS | c l p jc s1 Ec HS].
  - destruct HS.
    all: try solve [apply (min_frame s); unfold ctl; simp;
                    [reflexivity | intros R; split; [exact R | lia] | intros D; split; [exact D | lia] | exact Hmin]].
    + (* WNbDec: the worker decided to retire above the minimum *)
      pose proof (Hrt w ltac:(rewrite Ew; reflexivity)) as Hlt. pose proof (need_nonneg (minT s) (ctl s) Hc2).
      split; intros _; unfold ctl in *; simp; lia.
    + (* WFNbDec without the clean flag: not while the pool runs, as it does inside and after start() *)
      assert (Hno : stopped s = false -> False).
      { intros Hst. destruct (Hns Hst) as [_ Hd]. specialize (Hd w). rewrite Ew, Hcl in Hd. discriminate. }
      apply (min_frame s); [reflexivity | intros R; destruct Hno; exact (proj1 (F2 R)) | intros D; destruct Hno; exact (proj1 (F4 D)) | exact Hmin].
  - destruct (Nat.eq_dec c 0) as [->|Hc0].
    2:{ (* a client other than the controller writes neither start_done nor the controller, and does not lower the counter *)
        specialize (Hctl c Hc0). rewrite Ec in Hctl.
        destruct (CStep_flags HS Hctl) as (_ & _ & Estd).
        destruct (cfg_step H) as [_ Emn]. pose proof (CStep_nb HS).
        apply (min_frame s); unfold ctl; rewrite ?(CStep_others 0%nat HS) by auto;
          [exact Emn | intros R; split; [exact R | lia] | rewrite Estd; intros D; split; [exact D | lia] | exact Hmin]. }
    assert (E0 : ctl s = l) by (unfold ctl; rewrite Ec; reflexivity). rewrite E0 in *.
    destruct HS.
    all: try solve [apply (min_frame s); rewrite ?ctl_set_c, ?E0; simp; cbn [cpc];
                    rewrite ?need_kret, ?start_region_kret; cbn [start_region need kneed_pre kneed_post];
                    [ reflexivity
                    | try label_cases; (discriminate || (intros R; split; [exact R | lia]))
                    | (discriminate || (intros D; split; [exact D | lia]))
                    | exact Hmin ]].
    (* left: a thread is created or refused, or what start() owes is counted anew; for each, the claim inside start(),
       then the claim after it has returned where the step touches that one *)
    all: split; rewrite ?ctl_set_c; simp; cbn [cpc start_region need]; try exact M2.
    + (* CSTest refuses inside start(): the pool is not stopped, so max_threads is reached *)
      intros R. destruct Hg as [Hg|Hg]; [|rewrite (proj1 (F2 R)) in Hg; discriminate].
      pose proof (need_nonneg (minT s) (CSUnlock k) Hc2) as Hn. cbn [need] in Hn. lia.
    + (* CSNbInc: one thread more, one fewer to create *)
      intros R. specialize (M1 R). destruct k; (discriminate R || cbn [need kneed_pre kneed_post] in *; lia).
    + intros D. specialize (M2 D). lia.
    + (* CSTClear: min_threads threads to create; start_done is cleared *)
      intros _. lia.
    + discriminate.
    + (* CSTQsize: the two loop bounds add up to at least min_threads *)
      intros _. destruct (start_bounds Hc3 Hg) as [-> ->]. lia.
    + (* CSTLoopB 0: start() returns with nothing left to create *)
      destruct (entry_regions (proj1 Hret)) as (_ & -> & _); discriminate.
    + specialize (M1 eq_refl). cbn [need] in M1. intros _. lia.
Qed.
