(** The reachable states of the pool model: one invariant, one induction over the schedule.
    Every statement of C09-C11 about a reachable state (Props/C09.v, C10.v, C11.v) is a projection of
    [Inv_reachable], or follows from one in a few lines through a theorem about any state with these invariants
    (except C09_start_log_records_every_begin, stated without valid_cfg: it has its own induction). *)
From JR Require Import PoolInvDefs PoolInvA PoolInvH PoolSafety PoolLifecycle PoolInvC PoolFifo PoolProgress.

Record Inv (mx mn : Z) (s : st) : Prop := {
  v_max : maxT s = mx; v_min : minT s = mn;
  v_inv2 : Inv2 s; v_pend : I_pend s; v_ret : I_ret s; v_growth : I_growth s;
  v_task : I_task s; v_lockpos : I_lockpos s;
  v_fifo : mx = 1 -> I_fifo s }.
Arguments v_max {mx mn s}. Arguments v_min {mx mn s}. Arguments v_inv2 {mx mn s}. Arguments v_growth {mx mn s}.
Arguments v_task {mx mn s}. Arguments v_lockpos {mx mn s}. Arguments v_fifo {mx mn s}.

Lemma Inv_init mx mn progs : valid_cfg mx mn -> Inv mx mn (init mx mn progs).
Proof.
  intros Hv. constructor.
  - reflexivity.
  - reflexivity.
  - apply Inv2_init, Hv.
  - apply (windowed_0 _ _ pclaim_le). unfold pclaim. cbn. lia.
  - intros w Hw. discriminate Hw.
  - intros Hst. discriminate Hst.
  - apply task_init.
  - exact I.
  - intros _. apply fifo_init.
Qed.

Lemma Inv_step mx mn s t f s' : Inv mx mn s -> step s t f = Some s' -> Inv mx mn s'.
Proof.
  intros [Hmx Hmn J Hpd Hret Hgr Ht Hp Hf] H. pose proof J as [I Hfl _ _ _ _ Hns _ _ _].
  pose proof I as [Hctl Hcr Hcfg Hlk _ Hnb Hbd Hunf _ Hfr _ _ _ _ _].
  destruct (cfg_step H) as [Emx Emn]. constructor.
  - congruence.
  - congruence.
  - exact (Inv2_step Ht Hret J H).
  - exact (P_pend Hcr Hlk Hpd H).
  - exact (P_ret Hcr Hlk Hret H).
  - exact (P_growth Hctl Hcr Hcfg Hlk Hnb Hunf Hfl Hns Hpd Hret Hgr H).
  - exact (P_task Hcr Ht H).
  - exact (P_lockpos Hp H).
  - intros E. exact (P_fifo s t f s' ltac:(congruence) Hcr Hfr Hnb Hbd (Hf E) H).
Qed.

Theorem Inv_reachable mx mn progs sched : valid_cfg mx mn -> Inv mx mn (run sched (init mx mn progs)).
Proof. intros Hv. apply (pool_invariant (Inv mx mn) (Inv_step mx mn)), Inv_init, Hv. Qed.

Corollary reachable_inv2 mx mn progs sched : valid_cfg mx mn -> Inv2 (run sched (init mx mn progs)).
Proof. intros Hv. exact (v_inv2 (Inv_reachable mx mn progs sched Hv)). Qed.
Corollary reachable_inv1 mx mn progs sched : valid_cfg mx mn -> Inv1 (run sched (init mx mn progs)).
Proof. intros Hv. exact (j_inv1 _ (reachable_inv2 mx mn progs sched Hv)). Qed.
