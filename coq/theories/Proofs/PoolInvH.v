(** Growth: the pending counter dominates the tasks still to be finished, and outside enqueue's
    critical section every unfinished task is matched by a serving worker unless max_threads is reached. *)
From JR Require Import PoolInvDefs PoolInvA PoolInvE PoolInvG.

Fixpoint qtasks (l : list item) : nat :=
  match l with [] => 0%nat | i :: r => (b2n (is_task i) + qtasks r)%nat end.
Lemma qtasks_app l1 l2 : qtasks (l1 ++ l2) = (qtasks l1 + qtasks l2)%nat.
Proof. induction l1 as [|i r IH]; cbn [qtasks app]; [reflexivity | rewrite IH; lia]. Qed.
Lemma qtasks_all l : (forall i, In i l -> is_task i = true) -> qtasks l = length l.
Proof.
  induction l as [|i r IH]; intros H; cbn [qtasks length]; [reflexivity|].
  rewrite (H i (or_introl eq_refl)), IH by (intros; apply H; right; assumption). reflexivity.
Qed.

(** ** A claim with an allowance

    Both invariants of this file bound a quantity that a client raises at one line under the pool lock and
    makes up for a few lines later, still under the lock: between the two lines (its window) the bound holds
    with an allowance of one.  [claim s d] is the bound with allowance [d]. *)
Section Window.
  Variables (inwin : clabel -> bool) (claim : st -> Z -> Prop).
  Hypothesis claim_le : forall s d d', d <= d' -> claim s d -> claim s d'.
  Hypothesis inwin_locked : forall l, inwin l = true -> (0 < cdepth l)%nat.

  (** [inwin l]: a client at [l] is inside its window ([at_pend] for I_pend, [ewin] for I_growth); [win l] is the
      allowance that goes with the label, 1 or 0 *)
  Definition win (l : clabel) : Z := if inwin l then 1 else 0.
  Definition windowed (s : st) : Prop := claim s 1 /\ ((forall c, inwin (cpc (cs s c)) = false) -> claim s 0).

  Lemma windowed_0 s : claim s 0 -> windowed s.
  Proof. intros H. split; [apply (claim_le s 0); [lia | exact H] | intros _; exact H]. Qed.

  Lemma windowed_at s c : claim s (win (cpc (cs s c))) -> windowed s.
  Proof.
    unfold win. intros H. split.
    - destruct (inwin (cpc (cs s c))); [exact H | apply (claim_le s 0); [lia | exact H]].
    - intros Hall. rewrite (Hall c) in H. exact H.
  Qed.

  (** the client that holds the lock is the only one that can be in its window *)
  Lemma windowed_holder s c : I_lock s -> (0 < cdepth (cpc (cs s c)))%nat -> windowed s -> claim s (win (cpc (cs s c))).
  Proof.
    intros Hlk Hc [G1 G0]. unfold win. destruct (inwin (cpc (cs s c))) eqn:E; [exact G1|]. apply G0. intros c'.
    destruct (Nat.eq_dec c' c) as [->|Hne]; [exact E|]. destruct (inwin (cpc (cs s c'))) eqn:E'; [|reflexivity].
    destruct (two_lockers s c' c Hlk Hne (inwin_locked _ E') Hc).
  Qed.

  Lemma windowed_same s s' :
    (forall c, inwin (cpc (cs s' c)) = inwin (cpc (cs s c))) -> (forall d, 0 <= d -> claim s d -> claim s' d) ->
    windowed s -> windowed s'.
  Proof.
    intros Hc Hcl [G1 G0]. split; [apply Hcl; [lia | exact G1] | intros Hall; apply Hcl; [lia | apply G0]].
    intros c. rewrite <- Hc. apply Hall.
  Qed.

  (** a client moves without entering or leaving its window *)
  Lemma windowed_move s S c y : cs S = cs s -> inwin (cpc y) = inwin (cpc (cs s c)) ->
    (forall d, 0 <= d -> claim s d -> claim (set_c S c y) d) -> windowed s -> windowed (set_c S c y).
  Proof.
    intros Ecs Ey. apply windowed_same. intros c'. cbn [cs set_c]. rewrite Ecs.
    destruct (Nat.eq_dec c' c) as [->|Hne]; [rewrite upd_same; exact Ey | rewrite upd_other by assumption; reflexivity].
  Qed.

  (** a client moves, perhaps into or out of its window: the allowance moves with it.  A client that does not hold the
      lock is outside its window, and the others do not matter; one that holds the lock is the only one that counts. *)
  Lemma windowed_client s S c y : I_lock s -> cs S = cs s ->
    (cdepth (cpc (cs s c)) = 0%nat -> inwin (cpc y) = false) ->
    (forall d, win (cpc (cs s c)) <= d -> claim s d -> claim (set_c S c y) (d + win (cpc y) - win (cpc (cs s c)))) ->
    windowed s -> windowed (set_c S c y).
  Proof.
    intros Hlk Ecs Hy Hcl Hw. destruct (Nat.eq_dec (cdepth (cpc (cs s c))) 0) as [Hd|Hd].
    - assert (El : inwin (cpc (cs s c)) = false).
      { destruct (inwin (cpc (cs s c))) eqn:E; [|reflexivity]. pose proof (inwin_locked _ E). lia. }
      apply (windowed_move s); [exact Ecs | rewrite El; exact (Hy Hd) | | exact Hw].
      intros d Hd0 Hc. unfold win in Hcl. rewrite El, (Hy Hd) in Hcl.
      apply (claim_le _ (d + 0 - 0)); [lia | apply Hcl; assumption].
    - apply (windowed_at _ c). cbn [cs set_c]. rewrite upd_same.
      apply (claim_le _ (win (cpc (cs s c)) + win (cpc y) - win (cpc (cs s c)))); [lia|].
      apply Hcl; [lia|]. apply windowed_holder; [exact Hlk | lia | exact Hw].
  Qed.
End Window.
Arguments windowed_client {inwin claim}.

(** took a task from the queue, pending counter not yet decremented for it *)
Definition powing (x : wst) : bool :=
  match wpc x with
  | WLock1 | WActInc | WUnlock1 | WBegin | WBody | WTaskDone | WLock2 | WPendDec => true
  | _ => false
  end.

(** enqueue() has put its task and not yet counted it *)
Definition at_pend (l : clabel) : bool := match l with CEPend => true | _ => false end.
Lemma at_pend_locked l : at_pend l = true -> (0 < cdepth l)%nat.
Proof. destruct l; try discriminate. cbn. lia. Qed.

Definition pclaim (s : st) (d : Z) : Prop :=
  Z.of_nat (qtasks (q s)) + Z.of_nat (count powing (ws s) (next_w s)) - d <= nb_pending s.
Lemma pclaim_le s d d' : d <= d' -> pclaim s d -> pclaim s d'.
Proof. unfold pclaim. lia. Qed.

Definition I_pend (s : st) : Prop := windowed at_pend pclaim s.

Lemma P_pend {s t f s'} : I_created s -> I_lock s -> I_pend s -> step s t f = Some s' -> I_pend s'.
Proof.
  intros Hcr Hlk Hp H.
  destruct (step_Step H) as [w l h cl s1 Ew HS | c l p jc s1 Ec HS].
  - (* a worker moves: the clients stay, and the claim holds with the same allowance *)
    pose proof (WStep_count powing Hcr Ew HS) as E. destruct (WStep_frame HS) as (Ecs & _).
    apply (windowed_same _ _ s); [intros c; rewrite Ecs; reflexivity | unfold pclaim; intros d _ | exact Hp].
    (* the worker owes a decrement from WGet (with a task) to WPendDec, where it pays *)
    destruct HS; simp; rewrite upd_same in E; cbn [powing wpc b2n] in E; try lia.
    + (* WGet takes a task: from the queue to the worker *) rewrite Hq. cbn [qtasks is_task b2n]. lia.
    + (* WGet takes a sentinel *) rewrite Hq. cbn [qtasks is_task b2n]. lia.
  - pose proof (CStep_count powing Hcr Ec HS eq_refl eq_refl) as Epw.
    destruct HS.
    all: try (apply (windowed_move _ _ s); [reflexivity | rewrite Ec; try label_cases; reflexivity | unfold pclaim; simp; rewrite ?Epw | exact Hp]).
    all: try solve [intros d _; exact id].
    + (* CEPut: one task more, the allowance begins *)
      apply (windowed_client pclaim_le at_pend_locked s); [exact Hlk | reflexivity | rewrite Ec; discriminate | | exact Hp].
      rewrite Ec. unfold pclaim, win. simp. rewrite qtasks_app. cbn [cpc at_pend qtasks is_task b2n]. lia.
    + (* CEPend: the task is counted, the allowance ends *)
      apply (windowed_client pclaim_le at_pend_locked s); [exact Hlk | reflexivity | rewrite Ec; discriminate | | exact Hp].
      rewrite Ec. unfold pclaim, win. simp. cbn [cpc at_pend]. lia.
    + (* CSTLoopA: start() counts a task of the backlog *) lia.
    + (* CSPPut: a sentinel is no task *) rewrite qtasks_app. cbn [qtasks is_task b2n]. lia.
    + (* CCLGet drops an item *) rewrite Hq. cbn [qtasks]. lia.
    + rewrite Hq. cbn [qtasks]. lia.
Qed.

Definition retiring (x : wst) : bool := match wpc x with WNbDec => true | _ => false end.
(** the threads that stay: a worker at WNbDec is still counted in nb_threads and has decided to leave *)
Definition nb_eff (s : st) : Z := nb_threads s - Z.of_nat (count retiring (ws s) (next_w s)).
Definition ewin (l : clabel) : bool :=
  match l with
  | CEPend | CETest | CSLock KEnq | CSTest KEnq | CSNbInc KEnq => true
  | _ => false
  end.

Lemma retiring_locked x : retiring x = true -> (0 < wdepth (wpc x))%nat.
Proof. unfold retiring. destruct (wpc x); try discriminate. cbn. lia. Qed.

(** while a thread holds the pool lock no other thread is a retiring worker *)
Lemma retiring_none s t : I_lock s -> (0 < depth_of s t)%nat -> (forall w, t = TW w -> retiring (ws s w) = false) ->
  count retiring (ws s) (next_w s) = 0%nat.
Proof.
  intros Hlk Hd Hw. apply count_all_false. intros i _. destruct (retiring (ws s i)) eqn:E; [|reflexivity].
  destruct (thr_eq_dec t (TW i)) as [->|Hne]; [rewrite (Hw i eq_refl) in E; discriminate E|].
  destruct (lockers s t (TW i) Hlk Hne Hd (retiring_locked _ E)).
Qed.

Lemma retiring_moved s s' w : next_w s' = next_w s -> (forall w', w' <> w -> ws s' w' = ws s w') ->
  retiring (ws s' w) = retiring (ws s w) -> count retiring (ws s') (next_w s') = count retiring (ws s) (next_w s).
Proof.
  intros -> Ho Er. apply count_ext. intros i _. destruct (Nat.eq_dec i w) as [->|Hne]; [exact Er | rewrite Ho by assumption; reflexivity].
Qed.

(** the workers that hold an item and those about to retire are counted in nb_threads, and no worker is both *)
Lemma holding_retiring_serving f n : (count holding f n + count retiring f n <= count serving f n)%nat.
Proof.
  apply count_disjoint_le. intros x. unfold holding, serving, retiring. destruct (wpc x); cbn [b2n]; lia.
Qed.

(** a worker that has decided to retire (it holds the pool lock) does so above min_threads, and leaves enough threads for
    every unfinished task: what WTest has found stays true until WNbDec has acted on it *)
Definition I_ret (s : st) : Prop := forall w, retiring (ws s w) = true -> minT s < nb_threads s /\ unfinished s <= nb_eff s.

Lemma ret_retire s : I_ret s -> I_retire s.
Proof. intros Hr w E. apply (Hr w). unfold retiring. rewrite E. reflexivity. Qed.

(** a thread that moves without the pool lock leaves alone what a retiring worker (which holds it) has read *)
Lemma Step_unlocked s t s' : Step s t s' -> depth_of s t = 0%nat ->
  nb_threads s' = nb_threads s /\ unfinished s' <= unfinished s /\ next_w s' = next_w s /\
  forall w, retiring (ws s' w) = retiring (ws s w).
Proof.
  intros [w l h cl s1 Ew HS | c l p jc s1 Ec HS]; cbn [depth_of]; rewrite ?Ew, ?Ec; intros D.
  - destruct HS; try discriminate D; simp; (repeat split; [lia..|]).
    all: intros w'; destruct (Nat.eq_dec w' w) as [->|Hne]; [rewrite upd_same, Ew | rewrite upd_other by assumption]; reflexivity.
  - destruct HS; try discriminate D; repeat split; reflexivity || lia.
Qed.

Lemma P_ret {s t f s'} : I_created s -> I_lock s -> I_ret s -> step s t f = Some s' -> I_ret s'.
Proof.
  intros Hcr Hlk Hr H w' E. destruct (cfg_step H) as [_ ->]. apply step_Step in H.
  destruct (thr_eq_dec t (TW w')) as [->|Hne].
  - (* the mover arrives at WNbDec: WTest has decided so, with fewer unfinished tasks than threads; with the lock, it is
       the only retiring worker *)
    inversion H as [w l h cl s1 Ew HS | ]; subst. pose proof (WStep_count retiring Hcr Ew HS) as E1. rewrite E in E1.
    destruct HS; simp; rewrite upd_same in E; try discriminate E. split; [exact Hg|]. unfold nb_eff. simp.
    rewrite (retiring_none s (TW w') Hlk) in E1; [cbn [retiring wpc b2n] in E1; lia | cbn [depth_of]; rewrite Ew; cbn; lia|].
    intros w [= <-]. rewrite Ew. reflexivity.
  - (* another thread moves: w' was retiring, with the lock, so the mover is without it *)
    pose proof (others_keep retiring _ _ _ eq_refl eq_refl Hcr H w' Hne E) as E0.
    destruct (Step_unlocked _ _ _ H) as (En & Eu & Enw & Er).
    { destruct (depth_of s t) eqn:D; [reflexivity|]. destruct (lockers s t (TW w') Hlk Hne); [lia | exact (retiring_locked _ E0)]. }
    specialize (Hr w' E0). unfold nb_eff in *. rewrite En, Enw, (count_ext retiring (ws s) (ws s') _ (fun i _ => Er i)). lia.
Qed.

Definition gclaim (s : st) (d : Z) : Prop :=
  unfinished s - d <= nb_eff s + need 0 (ctl s) \/ maxT s <= nb_threads s + need 0 (ctl s).
Lemma gclaim_le s d d' : d <= d' -> gclaim s d -> gclaim s d'.
Proof. unfold gclaim. intros H [G|G]; [left | right]; lia. Qed.
Lemma ewin_locked l : ewin l = true -> (0 < cdepth l)%nat.
Proof. destruct l; try discriminate; try (cbn; lia); destruct k; (discriminate || cbn; lia). Qed.

(** the claim is suspended while start() is between clearing the stop flag and reading the backlog *)
Definition I_growth (s : st) : Prop := stopped s = false -> ctl s <> CSTQsize -> windowed ewin gclaim s.

Lemma gclaim_mono s s' d d' : maxT s' = maxT s ->
  unfinished s' - d' - nb_eff s' - need 0 (ctl s') <= unfinished s - d - nb_eff s - need 0 (ctl s) ->
  nb_threads s + need 0 (ctl s) <= nb_threads s' + need 0 (ctl s') ->
  gclaim s d -> gclaim s' d'.
Proof. unfold gclaim. intros -> H1 H2 [G|G]; [left | right]; lia. Qed.

Lemma growth_worker s s' w :
  cs s' = cs s -> stopped s' = stopped s -> next_w s' = next_w s -> maxT s' = maxT s -> (forall w', w' <> w -> ws s' w' = ws s w') ->
  I_growth s -> retiring (ws s' w) = retiring (ws s w) -> nb_threads s' = nb_threads s -> unfinished s' <= unfinished s ->
  I_growth s'.
Proof.
  intros Ecs Est Enw Emx Ho Hg Er En Eu. unfold I_growth, ctl. rewrite Ecs, Est. intros Hst Hq.
  apply (windowed_same _ _ s); [intros c; rewrite Ecs; reflexivity | | exact (Hg Hst Hq)].
  pose proof (retiring_moved s s' w Enw Ho Er) as Ec.
  intros d _. apply gclaim_mono; unfold nb_eff, ctl; rewrite ?Ecs, ?Ec, ?En; (assumption || lia).
Qed.

(** a client that is not the controller is outside start() *)
Lemma need_client s S c y : I_ctl s -> I_ctl (set_c S c y) -> cs S = cs s ->
  need 0 (ctl (set_c S c y)) - need 0 (cpc y) = need 0 (ctl s) - need 0 (cpc (cs s c)).
Proof.
  intros Hctl Hctl' Ecs. destruct (Nat.eq_dec c 0) as [->|Hc0]; [rewrite ctl_set_c; unfold ctl; lia|].
  rewrite ctl_set_other by assumption. specialize (Hctl c Hc0). specialize (Hctl' c Hc0). cbn [cs set_c] in Hctl'. rewrite upd_same in Hctl'.
  rewrite (need_zero _ (start_in_life _ Hctl)), (need_zero _ (start_in_life _ Hctl')). unfold ctl. rewrite Ecs. reflexivity.
Qed.
Lemma CStep_window {s c p jc l s'} : CStep s c p jc l s' -> cdepth l = 0%nat -> ewin (cpc (cs s' c)) = false.
Proof.
  destruct 1; try discriminate; intros E; cbn [cs set_c]; rewrite upd_same; try label_cases; try reflexivity.
  all: destruct k; (discriminate E || reflexivity).
Qed.

(** a client moves: the allowance moves with it ([windowed_client]), whether it is the controller or not *)
Lemma growth_client s S c y :
  I_lock s -> I_growth s -> (cdepth (cpc (cs s c)) = 0%nat -> ewin (cpc (cs (set_c S c y) c)) = false) ->
  cs S = cs s -> stopped S = stopped s -> cpc (cs s c) <> CSTQsize ->
  (stopped s = false -> forall d, win ewin (cpc (cs s c)) <= d -> gclaim s d ->
                                  gclaim (set_c S c y) (d + win ewin (cpc y) - win ewin (cpc (cs s c)))) ->
  I_growth (set_c S c y).
Proof.
  intros Hlk Hg Hy Ecs Est Hl Hcl Hst' Hq'. cbn [stopped set_c] in Hst'. rewrite Est in Hst'.
  cbn [cs set_c] in Hy. rewrite upd_same in Hy.
  apply (windowed_client gclaim_le ewin_locked s); [exact Hlk | exact Ecs | exact Hy | exact (Hcl Hst') |].
  apply Hg; [exact Hst'|]. destruct (Nat.eq_dec c 0) as [->|Hc0]; [exact Hl|].
  rewrite ctl_set_other in Hq' by assumption. unfold ctl in *. rewrite <- Ecs. exact Hq'.
Qed.

(** ... and what the claim reads changes by no more than the allowance and the threads still to create *)
Lemma growth_step s S c y :
  I_ctl s -> I_ctl (set_c S c y) -> I_lock s -> I_growth s -> (cdepth (cpc (cs s c)) = 0%nat -> ewin (cpc (cs (set_c S c y) c)) = false) ->
  cs S = cs s -> stopped S = stopped s -> maxT S = maxT s -> cpc (cs s c) <> CSTQsize ->
  unfinished S + win ewin (cpc (cs s c)) - win ewin (cpc y) - nb_eff S - need 0 (cpc y) <= unfinished s - nb_eff s - need 0 (cpc (cs s c)) ->
  nb_threads s + need 0 (cpc (cs s c)) <= nb_threads S + need 0 (cpc y) ->
  I_growth (set_c S c y).
Proof.
  intros Hctl Hctl' Hlk Hg Hy Ecs Est Emx Hl H1 H2. apply (growth_client s); try assumption.
  intros _ d _. pose proof (need_client s S c y Hctl Hctl' Ecs).
  apply gclaim_mono; [exact Emx | change (nb_eff (set_c S c y)) with (nb_eff S); cbn [unfinished set_c]; lia | cbn [nb_threads set_c]; lia].
Qed.

(** While the pool runs and no enqueue() is between its put and its count, the pending counter covers the unfinished
    tasks: each is in the queue or with a worker that has not yet decremented the counter for it. *)
Lemma pending_covers s c : I_lock s -> I_flag s -> I_unf s -> I_nosent s -> I_pend s -> stopped s = false ->
  (0 < cdepth (cpc (cs s c)))%nat -> at_pend (cpc (cs s c)) = false -> unfinished s <= nb_pending s.
Proof.
  intros Hlk Hfl Hunf Hns Hpd Hst Hc Hnp. destruct (Hns Hst) as [Hk Hne].
  pose proof (windowed_holder _ _ at_pend_locked s c Hlk Hc Hpd) as P. unfold win, pclaim in P. rewrite Hnp, (qtasks_all _ Hk) in P.
  assert (Hhp : (count holding (ws s) (next_w s) <= count powing (ws s) (next_w s))%nat).
  { apply count_le. intros i _ Hh. specialize (Hne i). unfold holding, powing, nonclean_exit in *.
    destruct (wpc (ws s i)); try discriminate; reflexivity. }
  unfold I_unf in Hunf. rewrite (clear_pending_running s Hfl Hst) in Hunf. lia.
Qed.

Lemma gclaim_left s d : unfinished s - d <= nb_eff s -> gclaim s d.
Proof. intros H. left. pose proof (need_nonneg 0 (ctl s) (Z.le_refl 0)). lia. Qed.
Lemma gclaim_right s d : maxT s <= nb_threads s -> gclaim s d.
Proof. intros H. right. pose proof (need_nonneg 0 (ctl s) (Z.le_refl 0)). lia. Qed.

Lemma P_growth {s t f s'} :
  I_ctl s -> I_created s -> I_cfg s -> I_lock s -> I_nb s -> I_unf s -> I_flag s -> I_nosent s -> I_pend s -> I_ret s ->
  I_growth s -> step s t f = Some s' -> I_growth s'.
Proof.
  intros Hctl Hcr Hcfg Hlk Hnb Hunf Hfl Hns Hpd Hret Hgr H. pose proof (P_ctl Hctl H) as Hctl'.
  destruct (step_Step H) as [w l h cl s1 Ew HS | c l p jc s1 Ec HS].
  - pose proof (WStep_lt Hcr Ew HS) as Hlt.
    destruct (WStep_frame HS) as (Ecs & Est & _). destruct (WStep_next HS) as [_ Enw]. destruct (cfg_step H) as [Emx _].
    pose proof (growth_worker s s1 w Ecs Est Enw Emx (fun w' => WStep_others w' HS) Hgr) as Hfr.
    destruct HS.
    all: try solve [apply Hfr; simp; rewrite ?upd_same, ?Ew; (reflexivity || lia)].
    + (* WTest decides to retire: it is the only retiring worker (it holds the lock), and the threads that stay
         outnumber the unfinished tasks *)
      intros _ _. apply (windowed_0 _ _ gclaim_le), gclaim_left.
      pose proof (P_ret Hcr Hlk Hret H w) as Hr. simp. rewrite upd_same in Hr. specialize (Hr eq_refl). lia.
    + (* WNbDec: the retirement decided at WTest takes effect *)
      intros _ _. apply (windowed_0 _ _ gclaim_le), gclaim_left. unfold nb_eff. simp.
      pose proof (Hret w ltac:(rewrite Ew; reflexivity)) as Hr. unfold nb_eff in Hr.
      pose proof (count_upd_lt retiring (ws s) w (mkW WUnlock3R h true) _ Hlt) as E. rewrite Ew in E. cbn [retiring wpc b2n] in E. lia.
    + (* WFNbDec without the clean flag: not while the pool runs *)
      intros Hst' _. exfalso. destruct (Hns Hst') as [_ Hd]. specialize (Hd w). rewrite Ew, Hcl in Hd. discriminate.
  - assert (Hwin : cdepth (cpc (cs s c)) = 0%nat -> ewin (cpc (cs s1 c)) = false) by (rewrite Ec; exact (CStep_window HS)).
    destruct HS.
    (* most rules leave the lock, the flag and the workers alone and keep win, need, unfinished and the counters as they
       are (a call returns to an entry label, where nothing is owed).  Four move what the claim reads and pay for it:
       CEPut has one unfinished item more and opens the window, whose allowance covers it; CSTLoopA (S a) and
       CSTLoopB (S b) pass what start() owes from the loop counter to the call of __start_thread, CSUnlock passes it
       back (by cases on who called) *)
    all: try solve [apply (growth_step s _ c _ Hctl Hctl' Hlk Hgr Hwin eq_refl eq_refl eq_refl); rewrite Ec; [discriminate | |];
                    try label_cases; unfold win, nb_eff; simp; cbn [cpc ewin need kneed_pre kneed_post]; lia].
    + (* CETest decides not to grow: pending <= threads, and the pending counter covers the unfinished tasks *)
      apply (growth_client s _ c _ Hlk Hgr Hwin eq_refl eq_refl); rewrite Ec; [discriminate|].
      intros Hst d Hd _. apply (gclaim_le _ 0); [unfold win in *; cbn [cpc ewin] in *; lia|]. apply gclaim_left.
      assert (Hcd : (0 < cdepth (cpc (cs s c)))%nat) by (rewrite Ec; cbn; lia).
      pose proof (pending_covers s c Hlk Hfl Hunf Hns Hpd Hst Hcd ltac:(rewrite Ec; reflexivity)).
      unfold nb_eff. simp. rewrite (retiring_none s (TC c) Hlk Hcd) by discriminate. lia.
    + (* CSTest refuses while the pool runs: max_threads is reached *)
      apply (growth_client s _ c _ Hlk Hgr Hwin eq_refl eq_refl); rewrite Ec; [discriminate|].
      intros Hst d _ _. apply gclaim_right. simp. destruct Hg as [Hg|Hg]; [exact Hg | congruence].
    + (* CSNbInc: one thread more; for enqueue() the allowance ends, for start() one thread fewer is left to create *)
      apply (growth_step s _ c _ Hctl Hctl' Hlk Hgr Hwin eq_refl eq_refl eq_refl); rewrite Ec; [discriminate | |].
      all: unfold win, nb_eff; simp; rewrite ?count_new; destruct k; cbn [cpc ewin need kneed_pre kneed_post retiring wpc b2n]; lia.
    + (* CSTStart: the worker that starts is not retiring *)
      apply (growth_step s _ c _ Hctl Hctl' Hlk Hgr Hwin eq_refl eq_refl eq_refl); [rewrite Ec; discriminate | |].
      all: unfold win, nb_eff; simp; rewrite ?(count_started retiring s c k v Hcr) by (rewrite ?Ec; reflexivity).
      all: rewrite Ec; cbn [cpc ewin need]; lia.
    + (* CSTClear: start() is about to read the backlog, the claim is suspended until it has *)
      intros _ Hq'. destruct Hq'. rewrite (ctl_only s c Hctl) by (rewrite Ec; reflexivity). apply ctl_set_c.
    + (* CSTQsize: start() has read the backlog n; it will create min(n, max) threads, then as many as min_threads asks *)
      assert (c = 0%nat) as -> by (apply (ctl_only s c Hctl); rewrite Ec; reflexivity).
      intros _ _. apply (windowed_0 _ _ gclaim_le).
      assert (Hcp : clear_pending s = 0) by (unfold clear_pending; rewrite Ec; reflexivity).
      pose proof (holding_retiring_serving (ws s) (next_w s)) as Hhr.
      unfold I_unf in Hunf. unfold I_nb in Hnb. destruct Hcfg as (Hmx & Hmn0 & Hmn1).
      unfold gclaim, nb_eff. rewrite ctl_set_c. simp. cbn [cpc need].
      destruct (start_bounds Hmn1 Hg) as [-> ->].
      destruct (Z.le_ge_cases (maxT s) (Z.of_nat (length (q s)))); [right | left]; lia.
    + (* CSPSet: the pool is stopped *)
      intros Hst'. discriminate Hst'.
    + (* CSPPut: inside stop() the pool is stopped *)
      intros Hst'. exfalso. rewrite (ctl_only s c Hctl) in Ec by (rewrite Ec; reflexivity).
      destruct (proj1 Hfl) as [Hst _]; [unfold ctl; rewrite Ec; reflexivity|]. simp. congruence.
Qed.
