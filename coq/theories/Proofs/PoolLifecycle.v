(** No task body begins after stop() has returned (I_late); Inv2 gathers Inv1 and the invariants of start() and
    stop() (PoolInvE, F, G).  It holds initially and is preserved given I_task (for Inv1) and I_ret (PoolInvH), off which
    its field I_retire is read; Inv of PoolReach.v adds both. *)
From JR Require Import PoolInvDefs PoolInvA PoolInvC PoolInvE PoolInvF PoolInvG PoolInvH PoolSafety.

Definition I_late (s : st) : Prop := late_start s = false.

Lemma after_stop_dead s : I_flag s -> I_quiet s -> stop_done s = true -> forall w, alive (ws s w) = false.
Proof.
  intros (F1 & _ & F3 & _) Hq Hsd. destruct (F3 Hsd) as [Hst _]. apply (Hq Hst).
  destruct (stop_region (ctl s)) eqn:E; [|reflexivity]. destruct (F1 eq_refl) as (_ & _ & ?). congruence.
Qed.

Lemma P_late {s t f s'} : I_flag s -> I_quiet s -> I_late s -> step s t f = Some s' -> I_late s'.
Proof.
  intros Hfl Hq Hl H. unfold I_late in *.
  destruct (step_Step H) as [w l h cl s1 Ew HS | c l p jc s1 Ec HS].
  - pose proof (WStep_alive HS) as Ha. destruct HS; try exact Hl.
    (* WBegin: a worker that moves is alive, so stop() has not returned *)
    simp. rewrite Hl. destruct (stop_done s) eqn:Esd; [|reflexivity].
    rewrite <- Ew, (after_stop_dead s Hfl Hq Esd w) in Ha. discriminate.
  - destruct (CStep_frame HS) as (_ & _ & _ & ->). exact Hl.
Qed.

Record Inv2 (s : st) : Prop := {
  j_inv1 : Inv1 s; j_flag : I_flag s; j_nocreate : I_nocreate s; j_threads : I_threads s;
  j_stopjoin : I_stopjoin s; j_quiet : I_quiet s; j_nosent : I_nosent s; j_retire : I_retire s;
  j_min : I_min s; j_late : I_late s }.

Lemma Inv2_init mx mn progs : valid_cfg mx mn -> Inv2 (init mx mn progs).
Proof.
  intros Hv. destruct (entry_regions (init_entry mx mn progs 0%nat)) as (R1 & R2 & R3 & R4).
  fold (ctl (init mx mn progs)) in *.
  constructor.
  - apply Inv1_init, Hv.
  - unfold I_flag. rewrite R1, R2. repeat apply conj; (discriminate || contradiction || auto).
  - intros c Hc. rewrite (entry_creating c _ (init_entry mx mn progs c)) in Hc. discriminate.
  - split; intros w Hw; discriminate Hw.
  - apply stopjoin_outside; apply (outside_join _ (or_introl R1)).
  - intros _ _. split; [intros w; reflexivity | intros i []].
  - intros Hst. discriminate.
  - intros w Hw. discriminate.
  - unfold I_min. rewrite R2. split; discriminate.
  - reflexivity.
Qed.

Lemma Inv2_step {s t f s'} : I_task s -> I_ret s -> Inv2 s -> step s t f = Some s' -> Inv2 s'.
Proof.
  intros Ht Hret [I Hfl Hnc Hth Hsj Hq Hns Hrt Hmin Hl] H. pose proof I as [Hctl Hcr Hcfg Hlk Hwf Hnb _ _ _ _ _ _ _ _ _].
  pose proof (P_flag Hctl Hfl H) as Hfl'. pose proof (P_nocreate Hctl Hlk Hnc H) as Hnc'. constructor.
  - exact (Inv1_step Ht I H).
  - exact Hfl'.
  - exact Hnc'.
  - exact (P_threads Hctl Hsj Hth H).
  - exact (P_stopjoin Hctl Hlk Hth Hsj Hfl' Hnc' H).
  - exact (P_quiet Hctl Hsj Hq Hnc' H).
  - exact (P_nosent Hctl Hwf Hfl Hq Hns H).
  - exact (ret_retire _ (P_ret Hcr Hlk Hret H)).
  - exact (P_min Hctl Hcfg Hnb Hfl Hns Hrt Hmin H).
  - exact (P_late Hfl Hq Hl H).
Qed.
