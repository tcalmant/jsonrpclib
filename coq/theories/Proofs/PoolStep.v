(** The transitions of the pool model as rules: [WStep] and [CStep] have one rule per control-flow edge of [wstep] and
    [cstep]; the successor state is written with the setters of Model/Pool.v, every test of the code ([if], [match], the
    [option_map] over [acquire] / [release], the label a call returns to) is a premise.  [step_Step] is the only link to
    [step]: a proof about a step of the model starts with [destruct (step_Step H)], then [destruct HS].

    The rules say what a step that was taken did, not when one can be taken: whether the timeout fired is
    forgotten (so [C_SPJoin] and [C_JParked] carry no test at all), and of a returning call only its next label is
    kept, the rest [p'] of the program is unconstrained.  There is no converse of [step_Step]: "this thread can
    step" is argued on [wstep] / [cstep] themselves (Proofs/PoolProgress.v, met_can_step).

    Premises are named after what they say, so that a proof can refer to them in every case:
    [Hqf] the queue mutex is free, [Hq] the shape of the queue, [Hacq] / [Hrel] the pool lock is taken /
    given back ([L] is the new lock), [Hret] the call returns, [Hst] the stop flag, [Hg], [Hg2] a
    guard of the code, [Hh] / [Hcl] the worker's held item / clean flag, [Hv] the state of the worker polled by
    stop().  The moving worker is [w], the moving client [c]; a worker that a client creates, starts, lists or
    polls is [v]. *)
From JR Require Import PoolInvDefs.

(** where a client is between two calls: at the first label of its next call, or at CDone when none is left; start() and
    stop() are called by client 0 only ([first_label]) *)
Inductive entry (c : nat) : clabel -> Prop :=
| En_done : entry c CDone
| En_enqueue : entry c CELock
| En_join timed : entry c (CJTest timed JOp)
| En_start : c = 0%nat -> entry c CSTTest
| En_stop : c = 0%nat -> entry c CSPTest.

(** [cret]: the client goes to the entry label [l'] of its next call; its join mark [jc] stays, or is set to
    the task counter when that call is a join *)
Definition returned (s : st) (c : nat) (jc : nat) (l' : clabel) (j' : nat) : Prop :=
  entry c l' /\ (j' = jc \/ j' = next_task s).

Inductive WStep (s : st) (w : nat) (h : option item) (cl : bool) : wlabel -> st -> Prop :=
| W_Loop_stop (Hst : stopped s = true) :
    WStep s w h cl WLoop (set_w s w (mkW WFLock h cl))
| W_Loop_go (Hst : stopped s = false) :
    WStep s w h cl WLoop (set_w s w (mkW WGet h cl))
| W_GetEmpty (Hq : q s = []) :
    WStep s w h cl WGet (set_w s w (mkW WLock3 h cl))
| W_Get_task t r (Hqf : qfree s = true) (Hq : q s = ITask t :: r) :
    WStep s w h cl WGet (set_w (set_queue s r (unfinished s) (epoch s)) w (mkW WLock1 (Some (ITask t)) cl))
| W_Get_sent r (Hqf : qfree s = true) (Hq : q s = ISent :: r) :
    WStep s w h cl WGet (set_w (set_queue s r (unfinished s) (epoch s)) w (mkW WSentDone (Some ISent) cl))
| W_SentDone (Hqf : qfree s = true) :
    WStep s w h cl WSentDone (set_w (task_done s) w (mkW WFLock h cl))
| W_Lock1 L (Hacq : acquires s (TW w) L) :
    WStep s w h cl WLock1 (set_w (set_lock s L) w (mkW WActInc h cl))
| W_ActInc :
    WStep s w h cl WActInc
    (set_w (set_counters s (nb_threads s) (nb_active s + 1) (nb_pending s)) w (mkW WUnlock1 h cl))
| W_Unlock1 L (Hrel : releases s (TW w) L) :
    WStep s w h cl WUnlock1 (set_w (set_lock s L) w (mkW WBegin h cl))
| W_Begin t (Hh : h = Some (ITask t)) :
    WStep s w h cl WBegin
    (set_w (set_hist s (upd (tstarts s) t (S (tstarts s t))) (tdone s) (tdropped s) (t :: start_log s)
              (late_start s || stop_done s)) w (mkW WBody h cl))
| W_Body t (Hh : h = Some (ITask t)) :
    WStep s w h cl WBody
    (set_w (set_hist s (tstarts s) (upd (tdone s) t true) (tdropped s) (start_log s) (late_start s)) w (mkW WTaskDone h cl))
| W_TaskDone (Hqf : qfree s = true) :
    WStep s w h cl WTaskDone (set_w (task_done s) w (mkW WLock2 h cl))
| W_Lock2 L (Hacq : acquires s (TW w) L) :
    WStep s w h cl WLock2 (set_w (set_lock s L) w (mkW WPendDec h cl))
| W_PendDec :
    WStep s w h cl WPendDec
    (set_w (set_counters s (nb_threads s) (nb_active s) (nb_pending s - 1)) w (mkW WActDec h cl))
| W_ActDec :
    WStep s w h cl WActDec
    (set_w (set_counters s (nb_threads s) (nb_active s - 1) (nb_pending s)) w (mkW WUnlock2 h cl))
| W_Unlock2 L (Hrel : releases s (TW w) L) :
    WStep s w h cl WUnlock2 (set_w (set_lock s L) w (mkW WLock3 h cl))
| W_Lock3 L (Hacq : acquires s (TW w) L) :
    WStep s w h cl WLock3 (set_w (set_lock s L) w (mkW WTest h cl))
| W_Test_retire (Hg : minT s < nb_threads s) (Hg2 : unfinished s < nb_threads s) :
    WStep s w h cl WTest (set_w s w (mkW WNbDec h cl))
| W_Test_stay (Hg : nb_threads s <= minT s \/ nb_threads s <= unfinished s) :
    WStep s w h cl WTest (set_w s w (mkW WUnlock3 h cl))
| W_NbDec :
    WStep s w h cl WNbDec
    (set_w (set_counters s (nb_threads s - 1) (nb_active s) (nb_pending s)) w (mkW WUnlock3R h true))
| W_Unlock3R L (Hrel : releases s (TW w) L) :
    WStep s w h cl WUnlock3R (set_w (set_lock s L) w (mkW WFLock h cl))
| W_Unlock3 L (Hrel : releases s (TW w) L) :
    WStep s w h cl WUnlock3 (set_w (set_lock s L) w (mkW WLoop h cl))
| W_FLock L (Hacq : acquires s (TW w) L) :
    WStep s w h cl WFLock (set_w (set_lock s L) w (mkW WFRemove h cl))
| W_FRemove :
    WStep s w h cl WFRemove
    (set_w (set_threads s (remove Nat.eq_dec w (threads s)) (next_w s)) w (mkW WFNbDec h cl))
| W_FNbDec_clean (Hcl : cl = true) :
    WStep s w h cl WFNbDec (set_w s w (mkW WFUnlock h cl))
| W_FNbDec (Hcl : cl = false) :
    WStep s w h cl WFNbDec
    (set_w (set_counters s (nb_threads s - 1) (nb_active s) (nb_pending s)) w (mkW WFUnlock h cl))
| W_FUnlock L (Hrel : releases s (TW w) L) :
    WStep s w h cl WFUnlock (set_w (set_lock s L) w (mkW WDead h cl)).

Inductive CStep (s : st) (c : nat) (p : list op) (jc : nat) : clabel -> st -> Prop :=
| C_ELock L (Hacq : acquires s (TC c) L) :
    CStep s c p jc CELock (set_c (set_lock s L) c (mkC CEPut p jc))
| C_EPut (Hqf : qfree s = true) :
    CStep s c p jc CEPut
    (set_c (set_next_task (set_queue s (q s ++ [ITask (next_task s)]) (unfinished s + 1) (epoch s)) (S (next_task s)))
           c (mkC CEPend p jc))
| C_EPend :
    CStep s c p jc CEPend
    (set_c (set_counters s (nb_threads s) (nb_active s) (nb_pending s + 1)) c (mkC CETest p jc))
| C_ETest_grow (Hg : nb_threads s < nb_pending s) :
    CStep s c p jc CETest (set_c s c (mkC (CSLock KEnq) p jc))
| C_ETest_no (Hg : nb_pending s <= nb_threads s) :
    CStep s c p jc CETest (set_c s c (mkC CEUnlock p jc))
| C_EUnlock L l' p' j' (Hrel : releases s (TC c) L) (Hret : returned s c jc l' j') :
    CStep s c p jc CEUnlock (set_c (set_lock s L) c (mkC l' p' j'))
| C_SLock k L (Hacq : acquires s (TC c) L) :
    CStep s c p jc (CSLock k) (set_c (set_lock s L) c (mkC (CSTest k) p jc))
| C_STest_no k (Hg : maxT s <= nb_threads s \/ stopped s = true) :
    CStep s c p jc (CSTest k) (set_c s c (mkC (CSUnlock k) p jc))
| C_STest_go k (Hg : nb_threads s < maxT s) (Hst : stopped s = false) :
    CStep s c p jc (CSTest k) (set_c s c (mkC (CSNbInc k) p jc))
| C_SNbInc k :
    CStep s c p jc (CSNbInc k)
    (set_c (set_w (set_threads (set_counters s (nb_threads s + 1) (nb_active s) (nb_pending s)) (threads s) (S (next_w s)))
                  (next_w s) (mkW WNew None false)) c (mkC (CSTStart k (next_w s)) p jc))
| C_STStart k v :
    CStep s c p jc (CSTStart k v)
    (set_c (set_w s v (mkW WLoop None false)) c (mkC (CSAppend k v) p jc))
| C_SAppend k v :
    CStep s c p jc (CSAppend k v)
    (set_c (set_threads s (threads s ++ [v]) (next_w s)) c (mkC (CSUnlock k) p jc))
| C_SUnlock k L (Hrel : releases s (TC c) L) :
    CStep s c p jc (CSUnlock k) (set_c (set_lock s L) c (mkC (kret k) p jc))
| C_STTest_go (Hst : stopped s = true) :
    CStep s c p jc CSTTest (set_c s c (mkC CSTClear p jc))
| C_STTest_ret l' p' j' (Hst : stopped s = false) (Hret : returned s c jc l' j') :
    CStep s c p jc CSTTest (set_c s c (mkC l' p' j'))
| C_STClear :
    CStep s c p jc CSTClear (set_c (set_stopped s false false false) c (mkC CSTQsize p jc))
| C_STQsize a b (Hqf : qfree s = true)
    (Hg : (if maxT s <? Z.of_nat (length (q s)) then (maxT s, 0)
           else if Z.of_nat (length (q s)) <? minT s then (Z.of_nat (length (q s)), minT s - Z.of_nat (length (q s)))
           else (Z.of_nat (length (q s)), 0)) = (a, b)) :
    CStep s c p jc CSTQsize (set_c s c (mkC (CSTLoopA (Z.to_nat a) (Z.to_nat b)) p jc))
| C_STLoopA0 b :
    CStep s c p jc (CSTLoopA 0 b) (set_c s c (mkC (CSTLoopB b) p jc))
| C_STLoopAS a b :
    CStep s c p jc (CSTLoopA (S a) b)
    (set_c (set_counters s (nb_threads s) (nb_active s) (nb_pending s + 1)) c (mkC (CSLock (KStartA a b)) p jc))
| C_STLoopB0 l' p' j' (Hret : returned s c jc l' j') :
    CStep s c p jc (CSTLoopB 0) (set_c (set_stopped s (stopped s) (stop_done s) true) c (mkC l' p' j'))
| C_STLoopBS b :
    CStep s c p jc (CSTLoopB (S b)) (set_c s c (mkC (CSLock (KStartB b)) p jc))
| C_SPTest_ret l' p' j' (Hst : stopped s = true) (Hret : returned s c jc l' j') :
    CStep s c p jc CSPTest (set_c s c (mkC l' p' j'))
| C_SPTest_go (Hst : stopped s = false) :
    CStep s c p jc CSPTest (set_c s c (mkC CSPSet p jc))
| C_SPSet :
    CStep s c p jc CSPSet (set_c (set_stopped s true false false) c (mkC CSPLock p jc))
| C_SPLock L (Hacq : acquires s (TC c) L) :
    CStep s c p jc CSPLock (set_c (set_lock s L) c (mkC (spput (length (threads s))) p jc))
| C_SPPut0 :
    CStep s c p jc (CSPPut 0) (set_c s c (mkC CSPCopy p jc))
| C_SPPutS n (Hqf : qfree s = true) :
    CStep s c p jc (CSPPut (S n))
    (set_c (set_queue s (q s ++ [ISent]) (unfinished s + 1) (epoch s)) c (mkC (spput n) p jc))
| C_SPCopy :
    CStep s c p jc CSPCopy (set_c s c (mkC (CSPUnlock (threads s)) p jc))
| C_SPUnlock ths L (Hrel : releases s (TC c) L) :
    CStep s c p jc (CSPUnlock ths) (set_c (set_lock s L) c (mkC (spalive ths) p jc))
| C_SPAlive_nil :
    CStep s c p jc (CSPAlive []) (set_c s c (mkC CSPDel p jc))
| C_SPAlive_dead v r (Hv : wpc (ws s v) = WDead) :
    CStep s c p jc (CSPAlive (v :: r)) (set_c s c (mkC (spalive r) p jc))
| C_SPAlive_live v r (Hv : wpc (ws s v) <> WDead) :
    CStep s c p jc (CSPAlive (v :: r)) (set_c s c (mkC (CSPJoin (v :: r)) p jc))
| C_SPJoin_nil :
    CStep s c p jc (CSPJoin []) (set_c s c (mkC CSPDel p jc))
| C_SPJoin v r :
    CStep s c p jc (CSPJoin (v :: r)) (set_c s c (mkC (CSPAlive2 (v :: r)) p jc))
| C_SPAlive2 ths :
    CStep s c p jc (CSPAlive2 ths) (set_c s c (mkC (CSPAlive ths) p jc))
| C_SPDel :
    CStep s c p jc CSPDel (set_c (set_threads s [] (next_w s)) c (mkC CCLLock p jc))
| C_CLLock L (Hacq : acquires s (TC c) L) :
    CStep s c p jc CCLLock (set_c (set_lock s L) c (mkC CCLGet p jc))
| C_CLGet_nil (Hqf : qfree s = true) (Hq : q s = []) :
    CStep s c p jc CCLGet (set_c s c (mkC (CJTest false JClear) p jc))
| C_CLGet_sent r (Hqf : qfree s = true) (Hq : q s = ISent :: r) :
    CStep s c p jc CCLGet (set_c (set_queue s r (unfinished s) (epoch s)) c (mkC CCLDone p jc))
| C_CLGet_task t r (Hqf : qfree s = true) (Hq : q s = ITask t :: r) :
    CStep s c p jc CCLGet
      (set_c (set_hist (set_queue s r (unfinished s) (epoch s)) (tstarts s) (tdone s) (upd (tdropped s) t true)
                       (start_log s) (late_start s)) c (mkC CCLDone p jc))
| C_CLDone (Hqf : qfree s = true) :
    CStep s c p jc CCLDone (set_c (task_done s) c (mkC CCLGet p jc))
| C_CLUnlock L l' p' j' (Hrel : releases s (TC c) L) (Hret : returned s c jc l' j') :
    CStep s c p jc CCLUnlock (set_c (set_stopped (set_lock s L) (stopped s) true false) c (mkC l' p' j'))
| C_JTest_wait timed k (Hg : 0 < unfinished s) :
    CStep s c p jc (CJTest timed k) (set_c s c (mkC (jnext timed k) p jc))
| C_JTest_clear timed (Hg : unfinished s <= 0) :
    CStep s c p jc (CJTest timed JClear) (set_c s c (mkC CCLUnlock p jc))
| C_JTest_ret timed l' p' j' (Hg : unfinished s <= 0) (Hret : returned s c jc l' j') :
    CStep s c p jc (CJTest timed JOp)
      (set_c (set_jmon s (join_bad s || negb (all_settled_below s jc)) (joinf_bad s)) c (mkC l' p' j'))
| C_JQJoin_clear (Hqf : qfree s = true) (Hg : unfinished s <= 0) :
    CStep s c p jc (CJQJoin JClear) (set_c s c (mkC CCLUnlock p jc))
| C_JQJoin_ret l' p' j' (Hqf : qfree s = true) (Hg : unfinished s <= 0) (Hret : returned s c jc l' j') :
    CStep s c p jc (CJQJoin JOp)
      (set_c (set_jmon s (join_bad s || negb (all_settled_below s jc)) (joinf_bad s)) c (mkC l' p' j'))
| C_JEnter (Hqf : qfree s = true) :
    CStep s c p jc CJEnter (set_c (set_qmutex s (Some c)) c (mkC CJWait p jc))
| C_JWait :
    CStep s c p jc CJWait (set_c (set_qmutex s None) c (mkC (CJParked (epoch s)) p jc))
| C_JParked e :
    CStep s c p jc (CJParked e) (set_c s c (mkC CJReacq p jc))
| C_JReacq (Hqf : qfree s = true) :
    CStep s c p jc CJReacq (set_c (set_qmutex s (Some c)) c (mkC CJRet p jc))
| C_JRet :
    CStep s c p jc CJRet (set_c s c (mkC (CJExit (unfinished s <=? 0)) p jc))
| C_JExit r l' p' j' (Hret : returned s c jc l' j') :
    CStep s c p jc (CJExit r)
    (set_c (set_jmon (set_qmutex s None) (join_bad s || (r && negb (all_settled_below s jc)))
                     (joinf_bad s || (negb r && (unfinished s <=? 0)))) c (mkC l' p' j')).

Inductive Step (s : st) : thr -> st -> Prop :=
| Step_w w l h cl s' : ws s w = mkW l h cl -> WStep s w h cl l s' -> Step s (TW w) s'
| Step_c c l p jc s' : cs s c = mkC l p jc -> CStep s c p jc l s' -> Step s (TC c) s'.

Lemma next_call_entry c p : entry c (fst (next_call c p)).
Proof.
  induction p as [|o r IH]; [constructor|].
  destruct o; cbn; try constructor; destruct (Nat.eqb_spec c 0); (constructor; assumption) || exact IH.
Qed.
Lemma init_entry mx mn progs c : entry c (cpc (cs (init mx mn progs) c)).
Proof. cbn [init cs]. pose proof (next_call_entry c (progs c)) as H. destruct (next_call c (progs c)). exact H. Qed.
Lemma cret_returned s c : exists l' p' j', cret s c = set_c s c (mkC l' p' j') /\ returned s c (cjcall (cs s c)) l' j'.
Proof.
  unfold cret, returned. pose proof (next_call_entry c (cprog (cs s c))) as H.
  destruct (next_call c (cprog (cs s c))) as [l r]. cbn in H. do 3 eexists. split; [reflexivity|].
  split; [exact H | destruct H; auto].
Qed.

Ltac inv_some H := inversion H; subst; clear H.
(** [H : e = Some _]: split on the tests [e] makes, dropping the branches that give [None] *)
Ltac break_ifs H :=
  repeat match type of H with
         | (if ?b then _ else _) = Some _ => let E := fresh "Eb" in destruct b eqn:E; try discriminate H
         | (match ?x with _ => _ end) = Some _ => let E := fresh "Em" in destruct x eqn:E; try discriminate H
         | (let '(_, _) := ?x in _) = Some _ => let E := fresh "Ep" in destruct x eqn:E
         end.
(** [H : option_map _ (acquire s t) = Some _] or the same with [release]: the lock operation succeeded *)
Ltac lockop_normal H :=
  match type of H with
  | option_map _ (acquire ?s ?t) = Some _ =>
      let s0 := fresh "s0" in let Hacq := fresh "Hacq" in let L := fresh "L" in
      destruct (acquire s t) as [s0|] eqn:Hacq; cbn [option_map] in H; [|discriminate H];
      destruct (acquire_acquires _ _ _ Hacq) as (L & -> & Hacq')
  | option_map _ (release ?s ?t) = Some _ =>
      let s0 := fresh "s0" in let Hrel := fresh "Hrel" in let L := fresh "L" in
      destruct (release s t) as [s0|] eqn:Hrel; cbn [option_map] in H; [|discriminate H];
      destruct (release_releases _ _ _ Hrel) as (L & -> & Hrel')
  | _ => idtac
  end.

(** Every label is evaluated: the rule with the same successor state applies; the labels whose code branches are
    left, one bullet each. *)
Lemma step_Step {s t f s'} : step s t f = Some s' -> Step s t s'.
Proof.
  intros H. destruct t as [w|c]; cbn [step] in H.
  - unfold wstep in H. destruct (ws s w) as [pc h cl] eqn:Ew. cbn [wpc wheld wclean] in H.
    apply (Step_w s w pc h cl s' Ew).
    destruct pc; destruct f; try discriminate H; cbn [orb negb] in H; lockop_normal H;
      break_ifs H; inv_some H; unfold wgo; simp; rewrite ?Ew;
      try match goal with E : negb _ = false |- _ => apply negb_false_iff in E end;
      try (econstructor; eauto; fail).
    + (* WLoop *) destruct (stopped s) eqn:E; [apply W_Loop_stop | apply W_Loop_go]; exact E.
    + (* WGet *) destruct i; [eapply W_Get_task | eapply W_Get_sent]; eassumption.
    + (* WTest *) destruct (minT s <? nb_threads s) eqn:E1; [destruct (unfinished s <? nb_threads s) eqn:E2|];
        [apply W_Test_retire | apply W_Test_stay | apply W_Test_stay]; lia.
    + (* WFNbDec *) destruct cl; simp; rewrite Ew; [apply W_FNbDec_clean | apply W_FNbDec]; reflexivity.
  - unfold cstep in H. destruct (cs s c) as [pc p jc] eqn:Ec. cbn [cpc cprog cjcall] in H.
    apply (Step_c s c pc p jc s' Ec).
    destruct pc; destruct f; try discriminate H; cbn [orb negb] in H; lockop_normal H;
      break_ifs H; inv_some H; unfold jreturn, cgo; simp; rewrite ?Ec;
      try match goal with E : negb _ = false |- _ => apply negb_false_iff in E end;
      repeat match goal with |- context [cret ?s1 ?c1] =>
        let E := fresh "E" in let R := fresh "R" in
        destruct (cret_returned s1 c1) as (?l' & ?p' & ?j' & E & R); rewrite E; simp; rewrite ?Ec in R end;
      try (econstructor; eauto; fail).
    + (* CETest *) destruct (nb_threads s <? nb_pending s) eqn:E; [apply C_ETest_grow | apply C_ETest_no]; lia.
    + (* CSTest *) destruct (maxT s <=? nb_threads s) eqn:E1; [|destruct (stopped s) eqn:E2];
        [apply C_STest_no; left | apply C_STest_no; right | apply C_STest_go]; auto; lia.
    + (* CSTTest *) destruct (stopped s) eqn:Es; [apply C_STTest_go | apply C_STTest_ret]; assumption.
    + (* CSPTest *) destruct (stopped s) eqn:Es; [apply C_SPTest_ret | apply C_SPTest_go]; assumption.
    + (* CSPAlive *) destruct (wpc (ws s n)) eqn:Ed; first [apply C_SPAlive_dead; assumption | apply C_SPAlive_live; congruence].
    + (* CCLGet *) destruct i; simp; rewrite Ec; [eapply C_CLGet_task | eapply C_CLGet_sent]; eassumption.
    + (* CJTest, nothing unfinished *) match goal with E : (_ <=? 0) = true |- _ => apply Z.leb_le in E end. rewrite orb_false_r in *.
      destruct k; [apply C_JTest_ret | apply C_JTest_clear]; assumption.
    + (* CJTest, work outstanding *) match goal with E : (_ <=? 0) = false |- _ => apply Z.leb_gt in E end. apply C_JTest_wait. assumption.
    + (* CJQJoin *) match goal with E : (_ <=? 0) = true |- _ => apply Z.leb_le in E end. rewrite orb_false_r in *.
      destruct k; [apply C_JQJoin_ret | apply C_JQJoin_clear]; assumption.
    + (* CJExit *) change (all_settled_below (set_qmutex s None) jc) with (all_settled_below s jc). apply C_JExit. exact R.
Qed.

Lemma WStep_frame {s w h cl l s'} : WStep s w h cl l s' ->
  cs s' = cs s /\ stopped s' = stopped s /\ stop_done s' = stop_done s /\ start_done s' = start_done s /\
  join_bad s' = join_bad s /\ joinf_bad s' = joinf_bad s.
Proof. destruct 1; repeat split; reflexivity. Qed.
Lemma WStep_next {s w h cl l s'} : WStep s w h cl l s' -> next_task s' = next_task s /\ next_w s' = next_w s.
Proof. destruct 1; split; reflexivity. Qed.

Lemma CStep_frame {s c p jc l s'} : CStep s c p jc l s' ->
  tstarts s' = tstarts s /\ tdone s' = tdone s /\ start_log s' = start_log s /\ late_start s' = late_start s.
Proof. destruct 1; repeat split; reflexivity. Qed.

Lemma cfg_step {s t f s'} : step s t f = Some s' -> maxT s' = maxT s /\ minT s' = minT s.
Proof.
  intros H. destruct (step_Step H) as [w l h cl s1 Ew HS | c l p jc s1 Ec HS].
  - destruct HS; split; reflexivity.
  - destruct HS; split; reflexivity.
Qed.

Lemma CStep_flags {s c p jc l s'} : CStep s c p jc l s' -> lifecycle l = false ->
  stopped s' = stopped s /\ stop_done s' = stop_done s /\ start_done s' = start_done s.
Proof. destruct 1; try discriminate; repeat split; reflexivity. Qed.

Lemma CStep_others {s c p jc l s'} c' : CStep s c p jc l s' -> c' <> c -> cs s' c' = cs s c'.
Proof. destruct 1; apply upd_other. Qed.

Lemma WStep_others {s w h cl l s'} w' : WStep s w h cl l s' -> w' <> w -> ws s' w' = ws s w'.
Proof. destruct 1; apply upd_other. Qed.

Lemma Step_others {s t s'} : I_created s -> Step s t s' ->
  (forall c, t <> TC c -> cs s' c = cs s c) /\
  (forall w, t <> TW w -> ws s' w = ws s w \/
     (ws s' w = mkW WNew None false /\ ws s w = w0) \/ (ws s' w = mkW WLoop None false /\ ws s w = mkW WNew None false)).
Proof.
  intros [Hcr1 Hcr2] [w l h cl s1 Ew HS | c l p jc s1 Ec HS].
  - split; [intros c _; destruct (WStep_frame HS) as [E _]; rewrite E; reflexivity|]. intros w' Hne. left.
    apply (WStep_others _ HS). congruence.
  - split; [intros c' Hne; apply (CStep_others _ HS); congruence|]. intros w' _.
    destruct HS; simp; auto.
    + (* CSNbInc *)
      destruct (Nat.eq_dec w' (next_w s)) as [->|?]; [rewrite upd_same, Hcr1 by lia | rewrite upd_other by assumption]; auto.
    + (* CSTStart *)
      destruct (Nat.eq_dec w' v) as [->|?]; [rewrite upd_same | rewrite upd_other by assumption]; auto.
      right; right. split; [reflexivity|]. apply (Hcr2 c k). rewrite Ec. reflexivity.
Qed.

(** backwards: a worker that has not moved and is in the class after the step was in it before (for a class that a
    worker just created or started is not in) *)
Lemma others_keep (g : wst -> bool) s t s' : g (mkW WNew None false) = false -> g (mkW WLoop None false) = false ->
  I_created s -> Step s t s' -> forall w, t <> TW w -> g (ws s' w) = true -> g (ws s w) = true.
Proof.
  intros G1 G2 Hcr HS w Hne. destruct (proj2 (Step_others Hcr HS) w Hne) as [->|[[-> _]|[-> _]]]; [exact id | congruence | congruence].
Qed.

Lemma CStep_nb {s c p jc l s'} : CStep s c p jc l s' -> nb_threads s <= nb_threads s'.
Proof. destruct 1; simp; lia. Qed.
Lemma CStep_next_task {s c p jc l s'} : CStep s c p jc l s' -> (next_task s <= next_task s')%nat.
Proof. destruct 1; simp; lia. Qed.

Lemma WStep_alive {s w h cl l s'} : WStep s w h cl l s' -> alive (mkW l h cl) = true.
Proof. destruct 1; reflexivity. Qed.

Lemma WStep_lt {s w h cl l s'} : I_created s -> ws s w = mkW l h cl -> WStep s w h cl l s' -> (w < next_w s)%nat.
Proof. intros Hcr Ew HS. apply (created_lt s w l h cl Hcr Ew). destruct HS; discriminate. Qed.

Lemma count_started (g : wst -> bool) s c k v : I_created s -> cpc (cs s c) = CSTStart k v ->
  g (mkW WLoop None false) = g (mkW WNew None false) ->
  count g (upd (ws s) v (mkW WLoop None false)) (next_w s) = count g (ws s) (next_w s).
Proof. intros [_ Hcr2] Hc Hg. destruct (Hcr2 c k v Hc) as [Hlt Hnew]. apply count_move; [exact Hlt | rewrite Hnew; exact Hg]. Qed.

Lemma WStep_count (g : wst -> bool) {s w h cl l s'} : I_created s -> ws s w = mkW l h cl -> WStep s w h cl l s' ->
  (count g (ws s') (next_w s') + b2n (g (mkW l h cl)) = count g (ws s) (next_w s) + b2n (g (ws s' w)))%nat.
Proof.
  intros Hcr Ew HS. pose proof (WStep_lt Hcr Ew HS) as Hlt. rewrite <- Ew.
  destruct HS; simp; rewrite upd_same; exact (count_upd_lt g (ws s) w _ _ Hlt).
Qed.
Lemma CStep_count (g : wst -> bool) {s c p jc l s'} : I_created s -> cs s c = mkC l p jc -> CStep s c p jc l s' ->
  g (mkW WNew None false) = false -> g (mkW WLoop None false) = false ->
  count g (ws s') (next_w s') = count g (ws s) (next_w s).
Proof.
  intros Hcr Ec HS G1 G2. destruct HS; simp; try reflexivity.
  - rewrite count_new, G1. apply Nat.add_0_r.
  - apply (count_started g s c k v Hcr); [rewrite Ec; reflexivity | congruence].
Qed.

Lemma ctl_only s c : I_ctl s -> lifecycle (cpc (cs s c)) = true -> c = 0%nat.
Proof. intros Hctl Hl. destruct (Nat.eq_dec c 0) as [E|Hne]; [exact E|]. rewrite (Hctl c Hne) in Hl. discriminate. Qed.
Lemma entry_ctl c l : entry c l -> c <> 0%nat -> lifecycle l = false.
Proof. destruct 1; intros; try reflexivity; contradiction. Qed.

(** The label a client moves to is computed, not written, in a few rules: by [kret], [spput], [spalive], [jnext], or it
    is the entry label of the next call.  [label_cases] splits on what it is computed from, where the goal mentions it. *)
Ltac label_cases :=
  match goal with
  | Hret : returned _ _ _ ?l _ |- context [?l] => destruct Hret as [[] ?]
  | |- context [kret ?k] => destruct k
  | |- context [spput ?n] => destruct n
  | |- context [spalive ?l] => destruct l
  | |- context [jnext ?b ?k] => destruct b, k
  end; cbn [kret spput spalive jnext].
