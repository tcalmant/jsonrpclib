(** * C12.  Handler level: the state of a connection, run to completion on its own, is always the completion of
    its own request ([HInv]); the isolation theorems are read off that.  Lifecycle: the machine is finite-state
    up to two counters, so what concerns its finite components — the invariant [finv], progress, the closed
    state — is established by running the model itself on the abstract states ([abs], [lstep_abs], [check]). *)
From JR Require Import Server.
From JR Require Sched.
From Coq Require Import Lia.
Local Open Scope nat_scope.

(** * Part 1 — handler level *)

Section HandlerProofs.
  Variable eff : Type.
  Variable dispatch : string -> dres * list eff.
  Variable fault500 page404 : string.

  Notation hstep := (hstep dispatch fault500 page404).
  Notation hrun := (hrun dispatch fault500 page404).
  Notation complete := (complete dispatch fault500 page404).
  Notation hfinal := (hfinal dispatch fault500 page404).
  Notation step := (step dispatch fault500 page404).
  Notation run := (run dispatch fault500 page404).
  Notation reply_of := (reply_of dispatch fault500 page404).
  Notation effects_of := (effects_of dispatch).

  Lemma hstep_facts {c c'} : hstep c = Some c' ->
    c_req c' = c_req c /\ rank (c_pc c') < rank (c_pc c) /\ c_calls c <= c_calls c'.
  Proof.
    unfold Server.hstep. destruct c as [rq pc dat st rsp wf calls effs].
    cbn [c_pc c_req c_data c_status c_response c_wfile c_calls c_effects set_pc].
    destruct pc;
      [ | destruct (rq_path_ok rq) | destruct (rq_clen rq) | destruct (dispatch dat) as [[t|] e] | | | discriminate ];
      intros [= <-]; cbn; repeat split; lia.
  Qed.

  Lemma hstep_none c : hstep c = None <-> c_pc c = HDone.
  Proof.
    split.
    - intros H. unfold Server.hstep in H. destruct (c_pc c); try reflexivity; try discriminate H.
      + destruct (rq_path_ok (c_req c)); discriminate H.
      + destruct (rq_clen (c_req c)); discriminate H.
      + destruct (dispatch (c_data c)) as [[t|] e]; discriminate H.
    - intros H. unfold Server.hstep. now rewrite H.
  Qed.

  Lemma rank_zero p : rank p = 0 -> p = HDone.
  Proof. destruct p; cbn; intros; try lia; reflexivity. Qed.

  Lemma hrun_done f c : c_pc c = HDone -> hrun f c = c.
  Proof. intros H. apply hstep_none in H. destruct f; cbn [Server.hrun]; [reflexivity|now rewrite H]. Qed.

  Lemma hrun_fuel : forall f g c, rank (c_pc c) <= f -> rank (c_pc c) <= g -> hrun f c = hrun g c.
  Proof.
    induction f as [|f IH]; intros g c Hf Hg.
    - rewrite (hrun_done g) by (apply rank_zero; lia). reflexivity.
    - destruct g as [|g]; [rewrite (hrun_done (S f)) by (apply rank_zero; lia); reflexivity|].
      cbn [Server.hrun]. destruct (hstep c) as [c'|] eqn:Hs; [|reflexivity].
      destruct (hstep_facts Hs) as (_ & Hr & _). apply IH; lia.
  Qed.

  Lemma complete_step c c' : hstep c = Some c' -> complete c' = complete c.
  Proof.
    intros Hs. destruct (hstep_facts Hs) as (_ & Hr & _). unfold Server.complete.
    destruct (rank (c_pc c)) as [|m] eqn:Em; [lia|]. cbn [Server.hrun]. rewrite Hs. apply hrun_fuel; lia.
  Qed.

  Lemma hrun_calls_mono : forall f c, c_calls c <= c_calls (hrun f c).
  Proof.
    induction f as [|f IH]; intros c; cbn [Server.hrun]; [lia|].
    destruct (hstep c) as [c'|] eqn:Hs; [|lia].
    destruct (hstep_facts Hs) as (_ & _ & Hc). specialize (IH c'). lia.
  Qed.

  Lemma hfinal_closed r :
    c_pc (hfinal r) = HDone /\ c_wfile (hfinal r) = Some (reply_of r)
    /\ c_calls (hfinal r) = (if dispatched r then 1 else 0) /\ c_effects (hfinal r) = effects_of r.
  Proof.
    (* by evaluation; only a request with a valid path and a content length reaches the dispatcher, and is run up to
       the dispatcher's answer first *)
    destruct r as [[] [n|] b]; [cbn|now auto..].
    destruct (dispatch (substring 0 n b)) as [[t|] e]; now auto.
  Qed.

  Lemma nth_error_set_nth_same {A} : forall (s : list A) c x y, nth_error s c = Some y -> nth_error (set_nth c x s) c = Some x.
  Proof. induction s as [|a s IH]; intros [|c] x y H; cbn in *; try discriminate; [reflexivity | eauto]. Qed.
  Global Arguments nth_error_set_nth_same {A s c} x {y}.

  Lemma nth_error_set_nth_other {A} : forall (s : list A) c c' x, c' <> c -> nth_error (set_nth c x s) c' = nth_error s c'.
  Proof.
    induction s as [|a s IH]; intros [|c] [|c'] x H; cbn; try reflexivity; try congruence.
    apply IH. congruence.
  Qed.

  Lemma length_set_nth {A} : forall (s : list A) c x, length (set_nth c x s) = length s.
  Proof. induction s as [|a s IH]; intros [|c] x; cbn; auto. Qed.

  Lemma step_inv {pool s c s'} : step pool s c = Some s' ->
    exists cn cn', nth_error s c = Some cn /\ hstep cn = Some cn' /\ s' = set_nth c cn' s.
  Proof.
    unfold Server.step. destruct (nth_error s c) as [cn|] eqn:En; [|discriminate].
    destruct (match c_pc cn with HQueued => active s <? pool | _ => true end); [|discriminate].
    destruct (hstep cn) as [cn'|] eqn:Hs; [|discriminate].
    intros H; inversion H; subst. eauto.
  Qed.

  (** when the handler of connection [c] can move: it has not finished and, if it has not been entered yet,
      a worker of the pool is free ([step_inv] forgets the guard, this is the converse with it) *)
  Lemma step_enabled pool s c cn : nth_error s c = Some cn -> c_pc cn <> HDone ->
    (c_pc cn = HQueued -> active s < pool) -> exists s', step pool s c = Some s'.
  Proof.
    intros En Hd Hq. unfold Server.step. rewrite En.
    destruct (hstep cn) as [cn'|] eqn:Hs; [|now apply hstep_none in Hs].
    destruct (c_pc cn); eauto. apply Nat.ltb_lt in Hq; [|reflexivity]. rewrite Hq. eauto.
  Qed.

  Definition HInv (reqs : list request) (s : hstate eff) : Prop :=
    forall c cn, nth_error s c = Some cn -> exists r, nth_error reqs c = Some r /\ complete cn = hfinal r.

  Lemma HInv_init reqs : HInv reqs (init reqs).
  Proof.
    intros c cn H. unfold init in H. destruct (nth_error reqs c) as [r|] eqn:Er.
    - rewrite (map_nth_error _ _ _ Er) in H. inversion H; subst. exists r. split; reflexivity.
    - apply nth_error_None in Er. assert (Hn : nth_error (map (@init_conn eff) reqs) c = None)
        by (apply nth_error_None; now rewrite map_length).
      congruence.
  Qed.

  Lemma HInv_step reqs pool s c s' : HInv reqs s -> step pool s c = Some s' -> HInv reqs s'.
  Proof.
    intros HI H. destruct (step_inv H) as (cn & cn' & En & Hs & ->).
    intros c' x Hx. destruct (Nat.eq_dec c' c) as [->|Hne].
    - rewrite (nth_error_set_nth_same _ En) in Hx. inversion Hx; subst.
      destruct (HI _ _ En) as (r & Hr & Hc). exists r. split; [assumption|].
      now rewrite (complete_step _ _ Hs).
    - rewrite nth_error_set_nth_other in Hx by assumption. eauto.
  Qed.

  Lemma HInv_run reqs pool : forall sched s, HInv reqs s -> HInv reqs (run pool sched s).
  Proof.
    intros sched. apply Sched.fold_left_invariant. intros s c HI.
    destruct (step pool s c) eqn:Hs; [eapply HInv_step; eauto | assumption].
  Qed.

  Theorem run_complete reqs pool sched c cn : nth_error (run pool sched (init reqs)) c = Some cn ->
    exists r, nth_error reqs c = Some r /\ complete cn = hfinal r.
  Proof. apply HInv_run, HInv_init. Qed.

End HandlerProofs.
Arguments step_inv {eff dispatch fault500 page404 pool s c s'}.
Arguments step_enabled {eff} dispatch fault500 page404 pool {s c cn}.
Arguments run_complete {eff dispatch fault500 page404 reqs pool sched c cn}.

(** * Part 2 — lifecycle *)

(** ** the finite part of the invariant, as a boolean function of the finite components of the state.
    The conjuncts are numbered 1 to 15 in the comments of [finv].  1 and 9 together (between calls the loop runs
    exactly when serving; a waiting thread will get the event) are what [progress_inv] rests on, 9 alone is not
    enough; 1, 13 and 14 give [closed_fin], 12 gives [waiting_ready], 11 and 15 give [stopping_runs]; the others
    make the conjunction inductive ([fin_inv_step]). *)
Definition is_closing (m : mpc) : bool :=
  match m with MCloseWait | MCloseSock | MCloseStop | MCloseJoin => true | _ => false end.

Definition finv (k : kind) (p : phase) (m : mpc) (l : lpc) (sr isd fl so po : bool) : bool :=
  let idle_ := match m with MIdle => true | _ => false end in
  let lrun_ := match l with LRun => true | _ => false end in
  let serving_ := match p with PServing => true | _ => false end in
  let closed_ := match p with PClosed => true | _ => false end in
  let done_ := closed_ && idle_ in
  (* 1, 2: between calls, the loop runs exactly in phase Serving, and then nobody has asked it to stop *)
  implb idle_ (Bool.eqb lrun_ serving_)
  && implb (idle_ && negb closed_) (negb sr)
  (* 3, 4, 5: the event is set only by a loop that has left; clear() happens only when no loop runs *)
  && implb isd (negb lrun_)
  && implb (isd && negb closed_) (negb sr)
  && implb (match l with LExit => true | _ => false end) (isd && is_pooled k)
  (* 6, 7, 8: the serving flag *)
  && implb (lrun_ && is_pooled k) fl
  && implb fl (match l with LNone => false | _ => true end)
  && implb (negb (is_pooled k)) (negb fl)
  (* 9, 10: a thread waiting for the event will get it *)
  && implb (match m with MWaitSD | MCloseWait => true | _ => false end) (isd || (lrun_ && sr))
  && implb (match m with MCloseSock | MCloseStop | MCloseJoin => true | _ => false end) (negb lrun_)
  (* 11, 12: where the calling thread can be *)
  && implb (is_closing m) (closed_ && is_pooled k)
  && implb (match m with MWaitSD => true | _ => false end) (match p with PReady => true | _ => false end)
  (* 13, 14, 15: socket and pool *)
  && implb (match m with MCloseStop | MCloseJoin => true | _ => done_ end) (negb so)
  && implb ((match m with MCloseJoin => true | _ => done_ end) && is_pooled k) (negb po)
  && implb (is_pooled k && negb (match p with PFresh => true | _ => false end)
            && negb (match m with MCloseJoin => true | _ => done_ end)) po.

Definition fin_inv (k : kind) (s : lst) : bool :=
  finv k (phase_ s) (mpc_ s) (loop s) (shutdown_request s) (is_shut_down s) (serving_flag s) (socket_open s) (pool_running s).

(** ** the machine is finite-state up to its counters

    A step inspects the finite components of the state, the next call of the history, and whether [idle]
    and [in_flight] are zero, and nothing else ([lstep_abs]).  [abs] keeps exactly that: the history cut
    after its first call, the counters capped at 1.  A fact about the finite components of all states
    that satisfy [finv], and about their successors, can therefore be established by running the model
    on the abstract states: [check] does so, and visits only the 124 of the 4608 combinations of finite
    components for which [finv] holds. *)

Definition abs (s : lst) : lst :=
  mkL (phase_ s) (firstn 1 (todo s)) 0 (mpc_ s) (loop s) (shutdown_request s) (is_shut_down s) (serving_flag s)
      (socket_open s) (pool_running s) (Nat.min 1 (idle s)) (Nat.min 1 (in_flight s)).

Definition fin_of (s : lst) :=
  (phase_ s, mpc_ s, loop s, (shutdown_request s, is_shut_down s, serving_flag s, socket_open s, pool_running s)).

Lemma fin_inv_of k s t : fin_of s = fin_of t -> fin_inv k s = fin_inv k t.
Proof. unfold fin_inv. intros [= -> -> -> -> -> -> -> ->]. reflexivity. Qed.

Lemma lstep_abs k s a : option_map fin_of (lstep k s a) = option_map fin_of (lstep k (abs s) a).
Proof.
  destruct s as [p td ret m l sr isd fl so po id nf]. unfold lstep, lstep_gen, abs.
  cbn [phase_ todo returned mpc_ loop shutdown_request is_shut_down serving_flag socket_open pool_running idle in_flight].
  destruct a.
  - unfold main_step.
    cbn [phase_ todo returned mpc_ loop shutdown_request is_shut_down serving_flag socket_open pool_running idle in_flight].
    destruct m.
    + destruct td as [|o r]; [reflexivity|]. cbn [firstn]. destruct (next_phase k p o); [|reflexivity].
      destruct o as [| |[|]| |]; try reflexivity; [destruct l; reflexivity|].
      destruct k; [reflexivity|]. destruct fl; reflexivity.
    + destruct isd; reflexivity.
    + destruct isd; reflexivity.
    + reflexivity.
    + destruct po; reflexivity.
    + destruct id, nf; reflexivity.
  - destruct l; try reflexivity. destruct nf, sr, k; reflexivity.
  - destruct nf; reflexivity.
  - destruct id; reflexivity.
Qed.

Definition kinds := [Plain; Pooled].
Definition phases := [PFresh; PReady; PServing; PClosed].
Definition mpcs := [MIdle; MWaitSD; MCloseWait; MCloseSock; MCloseStop; MCloseJoin].
Definition lpcs := [LNone; LRun; LExit].
Definition bools := [true; false].
Definition calls := [[]; [Construct]; [ServeInThread]; [Request true]; [Request false]; [Shutdown]; [ServerClose]].
Definition actors := [AMain; ALoop; AHandler; AWorker].

(** [Q] holds of every kind and every abstract state whose finite components satisfy [finv]
    ([if], not [implb]: the evaluation must not enter the states where [finv] fails) *)
Definition check (Q : kind -> lst -> bool) : bool :=
  forallb (fun k => forallb (fun p => forallb (fun m => forallb (fun l =>
  forallb (fun sr => forallb (fun isd => forallb (fun fl => forallb (fun so => forallb (fun po =>
    if finv k p m l sr isd fl so po
    then forallb (fun td => forallb (fun id => forallb (fun nf =>
           Q k (mkL p td 0 m l sr isd fl so po id nf)) [0; 1]) [0; 1]) calls
    else true)
  bools) bools) bools) bools) bools) lpcs) mpcs) phases) kinds.

(** in [H : forallb P xs = true], go to the element [x] of the enumeration [xs] *)
Ltac pick H x := apply (forallb_In (x:=x)) in H; [|destruct x; cbn; auto 10].

Lemma check_ok Q : check Q = true -> forall k s, fin_inv k s = true -> Q k (abs s) = true.
Proof.
  intros H k [p td ret m l sr isd fl so po id nf] HI. unfold fin_inv in HI. cbn in HI. unfold check in H.
  pick H k. pick H p. pick H m. pick H l. pick H sr. pick H isd. pick H fl. pick H so. pick H po.
  cbv beta in H. rewrite HI in H.
  apply (forallb_In (x:=firstn 1 td)) in H; [|destruct td as [|[| |[]| |] ?]; cbn; auto 10].
  apply (forallb_In (x:=Nat.min 1 id)) in H; [|destruct id; cbn; auto].
  apply (forallb_In (x:=Nat.min 1 nf)) in H; [|destruct nf; cbn; auto].
  exact H.
Qed.

Lemma fin_inv_step k s a s' : fin_inv k s = true -> lstep k s a = Some s' -> fin_inv k s' = true.
Proof.
  intros HI H.
  apply (check_ok (fun k t => forallb (fun a => match lstep k t a with Some t' => fin_inv k t' | None => true end)
                                      actors)) in HI; [|vm_compute; reflexivity].
  pick HI a. cbv beta in HI. pose proof (lstep_abs k s a) as A. rewrite H in A.
  destruct (lstep k (abs s) a) as [t'|]; [|discriminate A].
  rewrite (fin_inv_of k s' t'); [exact HI|]. cbn [option_map] in A. congruence.
Qed.

(** a returning shutdown() is in phase Ready *)
Lemma waiting_ready k s : fin_inv k s = true -> mpc_ s = MWaitSD -> phase_ s = PReady.
Proof.
  intros HI Hm.
  apply (check_ok (fun _ t => match mpc_ t, phase_ t with MWaitSD, PReady => true | MWaitSD, _ => false | _, _ => true end))
    in HI; [|vm_compute; reflexivity].
  cbn [abs mpc_ phase_] in HI. rewrite Hm in HI. destruct (phase_ s); (reflexivity || discriminate HI).
Qed.

(** the pool is running until server_close() stops it *)
Lemma stopping_runs k s : fin_inv k s = true -> mpc_ s = MCloseStop -> pool_running s = true.
Proof.
  intros HI Hm.
  apply (check_ok (fun _ t => match mpc_ t with MCloseStop => pool_running t | _ => true end))
    in HI; [|vm_compute; reflexivity].
  cbn [abs mpc_ pool_running] in HI. now rewrite Hm in HI.
Qed.

Lemma closed_fin k s : fin_inv k s = true -> close_returned s = true ->
  socket_open s = false /\ loop_running s = false /\ (is_pooled k = true -> pool_running s = false).
Proof.
  intros HI Hc.
  apply (check_ok (fun k t => implb (close_returned t)
                                (negb (socket_open t) && negb (loop_running t)
                                 && implb (is_pooled k) (negb (pool_running t))))) in HI; [|vm_compute; reflexivity].
  change (close_returned (abs s)) with (close_returned s) in HI. rewrite Hc in HI. cbn [implb] in HI.
  apply andb_true_iff in HI as [HI Hp]. apply andb_true_iff in HI as [Hso Hlr]. apply negb_true_iff in Hso, Hlr.
  split; [exact Hso|]. split; [exact Hlr|]. intros Hk. rewrite Hk in Hp. now apply negb_true_iff.
Qed.

Definition LInv (k : kind) (s : lst) : Prop :=
  legal_from k (phase_ s) (todo s) = true
  /\ fin_inv k s = true
  /\ (close_returned s = true -> is_pooled k = true -> idle s + in_flight s = 0).

Lemma LInv_init k h : legal k h = true -> LInv k (linit h).
Proof. intros H. split; [exact H|]. split; [destruct k; reflexivity | discriminate]. Qed.

(** Case analysis on a step [H : lstep k s a = Some s']: one goal per transition, in which [s] is an explicit
    record, [s'] is replaced by the record the transition builds, and the guards that let it fire are in the
    context ([En], [Es]).  The goals come in the order of the model's text, and the proofs below address them
    by these numbers:
      [main_step] from [MIdle]:  1 Construct   2 ServeInThread   3 Request true   4 Request false   5 Shutdown
                                 6 ServerClose, Plain   7 ServerClose, Pooled, serving flag set   8 … flag clear
      [main_step] elsewhere:     9 MWaitSD   10 MCloseWait   11 MCloseSock   12 MCloseStop, pool running
                                 13 MCloseStop, pool stopped   14 MCloseJoin
      [loop_step]:               15 LRun   16 LExit          [handler_step]: 17          [worker_step]: 18 *)
Ltac lstep_cases H :=
  lazymatch type of H with lstep ?k ?s ?a = Some _ =>
    destruct s as [p td ret m l sr isd fl so po id nf]; unfold lstep, lstep_gen in H; destruct a;
    [ unfold main_step in H; cbn [phase_ todo returned mpc_ loop serving_flag is_shut_down pool_running idle in_flight] in H;
      destruct m;
      [ destruct td as [|o r]; [discriminate H|];
        destruct (next_phase k p o) as [p'|] eqn:En; [|discriminate H];
        destruct o as [| |[|]| |]; [ | destruct l; try discriminate H | | | | destruct k; [|destruct fl] ]
      | destruct isd; [|discriminate H]
      | destruct isd; [|discriminate H]
      |
      | destruct po
      | destruct (id + nf) eqn:Es; [|discriminate H] ]
    | unfold loop_step in H; cbn [loop shutdown_request in_flight] in H; destruct l; try discriminate H;
      [ destruct (sr && (is_pooled k || Nat.eqb nf 0)); [|discriminate H] | ]
    | unfold handler_step in H; cbn [in_flight] in H; destruct nf as [|n]; [discriminate H|]
    | unfold worker_step in H; cbn [idle] in H; destruct id as [|n]; [discriminate H|] ];
    injection H as <-
  end.

Lemma legal_step k s a s' : legal_from k (phase_ s) (todo s) = true -> lstep k s a = Some s' ->
  legal_from k (phase_ s') (todo s') = true.
Proof.
  intros HA H. lstep_cases H; cbn [phase_ todo legal_from] in *.
  (* a call is made: the rest of the history is legal from the phase it leads to *)
  1-8: rewrite En in HA.
  all: exact HA.
Qed.

Lemma workers_step k s a s' : LInv k s -> lstep k s a = Some s' ->
  close_returned s' = true -> is_pooled k = true -> idle s' + in_flight s' = 0.
Proof.
  intros (HA & HI & HW) H.
  lstep_cases H; unfold close_returned in *; cbn [phase_ mpc_ idle in_flight] in *; intros Hc Hk.
  (* the serving thread, a handler, a worker: [s] was closed already, both counters are zero and nothing moves *)
  15-18: specialize (HW Hc Hk); lia.
  (* the join has seen both counters at zero *)
  14: exact Es.
  (* the pool is running until this very call stops it *)
  13: discriminate (stopping_runs _ _ HI eq_refl).
  (* further steps inside server_close() *)
  10-12: destruct p; discriminate Hc.
  (* a returning shutdown() is in phase Ready *)
  9: pose proof (waiting_ready _ _ HI eq_refl) as R; cbn in R; subst p; discriminate Hc.
  (* Shutdown and the pooled ServerClose block; the plain server has no pool *)
  7-8: destruct p'; discriminate Hc.
  6: discriminate Hk.
  5: destruct p'; discriminate Hc.
  (* the other calls do not lead to phase Closed *)
  all: destruct p'; try discriminate Hc; destruct p, k; discriminate En.
Qed.

Lemma LInv_step k s a s' : LInv k s -> lstep k s a = Some s' -> LInv k s'.
Proof.
  intros HI H. pose proof HI as (HA & HF & HW).
  split; [eapply legal_step; eauto|]. split; [eapply fin_inv_step; eauto | eapply workers_step; eauto].
Qed.

Lemma LInv_run k : forall sched s, LInv k s -> LInv k (lrun k sched s).
Proof.
  intros sched. apply Sched.fold_left_invariant. intros s a HI. fold (lstep k s a).
  destruct (lstep k s a) eqn:Hs; [eapply LInv_step; eauto | assumption].
Qed.

(** every step of every thread decreases the measure: no infinite run.
    [lmeasure] = the [opcost] of the calls still to be made + [mcost] of where the caller is + [lcost] of the
    loop + 2 * [in_flight] + [idle], and the weights are what the steps need: a call costs 1 plus what it sets
    going — [ServeInThread] 3 = 1 + [lcost LRun] 2 (the loop leaves in at most two steps, [LRun], [LExit]);
    [Shutdown] 2 = 1 + [mcost MWaitSD] 1; [ServerClose] 5 = 1 + [mcost MCloseWait] 4 (the longest way back to
    [MIdle]: wait, socket, stop, join); [Request] 3 because a slow one adds an in-flight handler (2) and a fast
    one may leave a new idle worker (1); a handler weighs 2 because, finishing, it hands its worker (1) back
    to the pool *)
Theorem measure_decreases k s a s' : lstep k s a = Some s' -> lmeasure s' < lmeasure s.
Proof.
  intros H. lstep_cases H; unfold lmeasure;
    cbn [todo mpc_ loop idle in_flight map list_sum fold_right opcost mcost lcost].
  (* where the two kinds of server differ: the worker of a pooled server goes back to the pool *)
  17: destruct (is_pooled k). 15: destruct (is_pooled k). 4: destruct (is_pooled k), id.
  all: cbn [lcost]; lia.
Qed.

(** while a call of the history has not returned, some thread can move: the calling thread itself, or the
    serving thread, an in-flight handler or a pool worker (the ones it is waiting for) *)
Lemma progress_inv k s : LInv k s -> main_finished s = false -> exists a s', lstep k s a = Some s'.
Proof.
  intros (HA & HI & _) Hm.
  apply (check_ok (fun k t => main_finished t || negb (legal_from k (phase_ t) (todo t))
                              || existsb (fun a => match lstep k t a with Some _ => true | None => false end) actors))
    in HI; [|vm_compute; reflexivity].
  assert (E : main_finished (abs s) = false /\ legal_from k (phase_ (abs s)) (todo (abs s)) = true).
  { destruct s as [p [|o r] ret m l sr isd fl so po id nf]; cbn in *; [auto|].
    destruct (next_phase k p o); [auto|discriminate HA]. }
  destruct E as [E1 E2]. rewrite E1, E2 in HI. apply existsb_exists in HI as (a & _ & Ha). exists a.
  pose proof (lstep_abs k s a) as A. destruct (lstep k s a) as [s'|]; [eauto|].
  destruct (lstep k (abs s) a); discriminate.
Qed.

Lemma pick_step_spec w k s :
  match pick_step w k s with
  | Some s' => exists a, lstep_gen w k s a = Some s'
  | None => forall a, lstep_gen w k s a = None
  end.
Proof.
  unfold pick_step.
  destruct (lstep_gen w k s AMain) eqn:E1; [eauto|].
  destruct (lstep_gen w k s ALoop) eqn:E2; [eauto|].
  destruct (lstep_gen w k s AHandler) eqn:E3; [eauto|].
  destruct (lstep_gen w k s AWorker) eqn:E4; [eauto|]. now destruct a.
Qed.

(** corollary, executable form: the model's deterministic executor ([pick_step]: the caller if it can move, else
    the serving thread, else a handler, else a worker) returns from every call of a legal history *)
Lemma lexec_finishes k : forall fuel s, LInv k s -> lmeasure s < fuel -> main_finished (lexec serving_flag fuel k s) = true.
Proof.
  induction fuel as [|f IH]; intros s HI Hf; [lia|].
  cbn [lexec]. pose proof (pick_step_spec serving_flag k s) as Hp.
  destruct (pick_step serving_flag k s) as [s'|].
  - destruct Hp as (a & Ha).
    apply IH; [eapply LInv_step; eauto|]. pose proof (measure_decreases k s a s' Ha). lia.
  - destruct (main_finished s) eqn:Hm; [reflexivity|].
    destruct (progress_inv k s HI Hm) as (a & s' & Hs'). unfold lstep in Hs'.
    now rewrite (Hp a) in Hs'.
Qed.
