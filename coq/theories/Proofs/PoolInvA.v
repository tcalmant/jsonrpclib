(** Preservation of the structural invariants: I_ctl, I_created, I_lock, I_wf. *)
From JR Require Import PoolInvDefs.
From JR Require Export PoolStep.

Lemma P_ctl {s t f s'} : I_ctl s -> step s t f = Some s' -> I_ctl s'.
Proof.
  intros Hctl H c' Hc'. specialize (Hctl c' Hc').
  destruct (step_Step H) as [w l h cl s1 Ew HS | c l p jc s1 Ec HS].
  - (* a worker moves: the clients stay *)
    destruct (WStep_frame HS) as [-> _]. exact Hctl.
  - destruct (Nat.eq_dec c' c) as [->|Hne]; [|rewrite (CStep_others _ HS Hne); exact Hctl].
    (* the mover is not the controller: it is outside start() and stop(), and stays outside or returns *)
    rewrite Ec in Hctl.
    destruct HS; try discriminate Hctl; simp; rewrite upd_same; cbn [cpc]; try reflexivity; try exact Hctl.
    (* enqueue or join returns: to an entry label, which is the controller's only if it is start() or stop() *)
    all: try exact (entry_ctl c _ (proj1 Hret) Hc').
    + (* CSUnlock: back in enqueue *) rewrite lifecycle_kret. exact Hctl.
    + (* CJTest, work outstanding: the client's own join goes on *) destruct k; [destruct timed; reflexivity | discriminate Hctl].
Qed.

Definition depth_of (s : st) (t : thr) : nat :=
  match t with TW w => wdepth (wpc (ws s w)) | TC c => cdepth (cpc (cs s c)) end.
Lemma I_lock_iff s : I_lock s <-> forall t, lockd s t = depth_of s t.
Proof.
  split; [intros [Hw Hc] [w|c]; [apply Hw | apply Hc]|].
  intros H; split; [intros w; apply (H (TW w)) | intros c; apply (H (TC c))].
Qed.

Lemma lockers s t u : I_lock s -> t <> u -> (0 < depth_of s t)%nat -> (0 < depth_of s u)%nat -> False.
Proof. rewrite I_lock_iff. intros H Hne Ht Hu. rewrite <- H in Ht, Hu. pose proof (lockd_excl s t u Hne Ht). lia. Qed.
Lemma two_lockers s c1 c2 : I_lock s -> c1 <> c2 ->
  (0 < cdepth (cpc (cs s c1)))%nat -> (0 < cdepth (cpc (cs s c2)))%nat -> False.
Proof. intros H Hne. exact (lockers s (TC c1) (TC c2) H ltac:(congruence)). Qed.
Lemma wc_lockers s w c : I_lock s ->
  (0 < wdepth (wpc (ws s w)))%nat -> (0 < cdepth (cpc (cs s c)))%nat -> False.
Proof. intros H. exact (lockers s (TW w) (TC c) H ltac:(congruence)). Qed.

(** a client moves without creating or starting a worker *)
Lemma created_client s S c y :
  next_w S = next_w s -> ws S = ws s -> cs S = cs s -> (forall k v, cpc y <> CSTStart k v) ->
  I_created s -> I_created (set_c S c y).
Proof.
  intros En Ew Ec Hy [Hcr1 Hcr2]. split; simp; rewrite ?En, ?Ew, ?Ec; [exact Hcr1|].
  intros c' k v. destruct (Nat.eq_dec c' c) as [->|Hne]; [rewrite upd_same; intros E; destruct (Hy _ _ E) | rewrite upd_other by assumption; apply Hcr2].
Qed.

Lemma P_created {s t f s'} : I_lock s -> I_created s -> step s t f = Some s' -> I_created s'.
Proof.
  intros Hlk Hcr H. pose proof Hcr as [Hcr1 Hcr2].
  destruct (step_Step H) as [w l h cl s1 Ew HS | c l p jc s1 Ec HS].
  - (* a worker moves: it has been created and started; the other workers and the clients stay *)
    pose proof (WStep_lt Hcr Ew HS) as Hlt.
    destruct (WStep_frame HS) as [Ecs _]. destruct (WStep_next HS) as [_ Enw].
    split; rewrite Enw, ?Ecs.
    + intros w' Hw'. rewrite (WStep_others w' HS) by lia. exact (Hcr1 w' Hw').
    + intros c' k v Hc'. destruct (Hcr2 c' k v Hc') as [Hv Hnew]. split; [exact Hv|].
      rewrite (WStep_others v HS); [exact Hnew|]. intros ->. rewrite Ew in Hnew. destruct HS; discriminate Hnew.
  - destruct HS.
    all: try solve [apply (created_client s); [reflexivity | reflexivity | reflexivity | intros k0 v0; try label_cases; discriminate | exact Hcr]].
    + (* CSNbInc: the new worker is the next one, and is what CSTStart expects *)
      split; simp.
      * intros w' Hw'. rewrite upd_other by lia. apply Hcr1. lia.
      * intros c' k' v'. destruct (Nat.eq_dec c' c) as [->|Hne]; [rewrite upd_same | rewrite upd_other by assumption].
        -- intros E. injection E as <- <-. split; [lia | apply upd_same].
        -- intros Hc'. destruct (Hcr2 c' k' v' Hc') as [Hv Hnew]. split; [lia | rewrite upd_other by lia; exact Hnew].
    + (* CSTStart: no other client is at CSTStart, both would hold the lock *)
      destruct (Hcr2 c k v) as [Hv _]; [rewrite Ec; reflexivity|].
      split; simp.
      * intros w' Hw'. rewrite upd_other by lia. exact (Hcr1 w' Hw').
      * intros c' k' v'. destruct (Nat.eq_dec c' c) as [->|Hne]; [rewrite upd_same; discriminate | rewrite upd_other by assumption].
        intros Hc'. exfalso. apply (two_lockers s c' c Hlk Hne); [rewrite Hc' | rewrite Ec]; cbn; lia.
Qed.

(** a step does not touch the lock and the mover [t] stays at its depth; or [t] takes or gives back one level
    (the sums say both: its depth moves as its lock count does) *)
Lemma lock_same s s' t : lock s' = lock s -> depth_of s' t = depth_of s t ->
  (forall u, u <> t -> depth_of s' u = depth_of s u) -> I_lock s -> I_lock s'.
Proof.
  rewrite !I_lock_iff. intros Hl Ht Hu H u. unfold lockd. rewrite Hl. fold (lockd s u). rewrite H.
  destruct (thr_eq_dec u t) as [->|Hne]; [symmetry; exact Ht | symmetry; exact (Hu u Hne)].
Qed.
Lemma lock_moved s s' t L : others_free s t L -> lock s' = L ->
  (lockd (set_lock s L) t + depth_of s t = depth_of s' t + lockd s t)%nat ->
  (forall u, u <> t -> depth_of s' u = depth_of s u) -> I_lock s -> I_lock s'.
Proof.
  rewrite !I_lock_iff. intros Hf Hl Ht Hu H u.
  assert (E : lockd s' u = lockd (set_lock s L) u) by (unfold lockd; rewrite Hl; reflexivity). rewrite E.
  destruct (thr_eq_dec u t) as [->|Hne].
  - rewrite (H t) in Ht. lia.
  - rewrite (Hu u Hne), <- H. destruct (Hf u Hne) as [-> ->]. reflexivity.
Qed.

(** a worker being created or started is at depth 0 before and after *)
Lemma depth_others s t s' : I_created s -> Step s t s' -> forall u, u <> t -> depth_of s' u = depth_of s u.
Proof.
  intros Hcr HS. destruct (Step_others Hcr HS) as [Hc Hw]. intros [w|c] Hu; cbn [depth_of].
  - destruct (Hw w ltac:(congruence)) as [->|[[-> ->]|[-> ->]]]; reflexivity.
  - rewrite Hc by congruence. reflexivity.
Qed.

Lemma entry_cdepth c l : entry c l -> cdepth l = 0%nat.
Proof. destruct 1; reflexivity. Qed.

Lemma P_lock {s t f s'} : I_created s -> I_lock s -> step s t f = Some s' -> I_lock s'.
Proof.
  intros Hcr Hlk H. apply step_Step in H. pose proof (depth_others _ _ _ Hcr H) as Ho.
  destruct H as [w l h cl s1 Ew HS | c l p jc s1 Ec HS].
  - destruct HS; try (destruct Hacq as [E Hf] || destruct Hrel as (E & Hf & _));
      (first [ apply (lock_moved s _ (TW w) L Hf) | apply (lock_same s _ (TW w)) ]; [reflexivity | | exact Ho | exact Hlk]).
    (* the mover: its label gets one level deeper exactly at the four lock lines, one less at the five unlocks *)
    all: cbn [depth_of]; simp; rewrite upd_same, Ew; cbn [wpc wdepth]; lia.
  - destruct HS; try (destruct Hacq as [E Hf] || destruct Hrel as (E & Hf & _));
      (first [ apply (lock_moved s _ (TC c) L Hf) | apply (lock_same s _ (TC c)) ]; [reflexivity | | exact Ho | exact Hlk]).
    all: cbn [depth_of]; simp; rewrite upd_same, Ec; cbn [cpc cdepth kdepth].
    (* to a written label: arithmetic.  To an entry label, outside every critical section, or back to the caller
       of __start_thread, where it held the lock (kret): by the two lemmas, then arithmetic *)
    all: try rewrite (entry_cdepth c _ (proj1 Hret)); try rewrite cdepth_kret; try lia.
    (* left: to a loop head of stop() (spput, spalive) or on with join (jnext) *)
    all: label_cases; cbn [cdepth]; lia.
Qed.

Lemma P_wf {s t f s'} : I_created s -> I_wf s -> step s t f = Some s' -> I_wf s'.
Proof.
  intros Hcr Hwf H w'. apply step_Step in H. destruct (Step_others Hcr H) as [_ Ho].
  destruct (thr_eq_dec t (TW w')) as [->|Hne].
  2:{ (* the others keep their record; a worker just created or started holds nothing and is not clean *)
      destruct (Ho w' Hne) as [->|[[-> _]|[-> _]]]; [apply Hwf | reflexivity | reflexivity]. }
  (* the mover: what it holds and its clean flag change at WGet and WNbDec only, as its new label requires *)
  inversion H as [w l h cl s1 Ew HS | ]; subst. specialize (Hwf w'). rewrite Ew in Hwf.
  destruct HS; simp; rewrite upd_same; unfold wf_w, held_task, held_sent in *; cbn [wpc wheld wclean] in *.
  all: try reflexivity; try exact Hwf.
  - (* WGet takes a task *) rewrite Hwf. reflexivity.
  - (* WGet takes a sentinel *) rewrite Hwf. reflexivity.
  - (* WTaskDone: nothing is asked of the held item any more *) apply andb_true_iff in Hwf. apply Hwf.
Qed.
