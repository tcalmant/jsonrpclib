(** Lemmas about Model/JsonClass.v for property C08: name validation ahead of every import /
    construction, and the propagation of a rejection through one frame; the C08 statements are proved
    from them in Props/C08.v. *)
From JR Require Import JsonClass JsonClassEq.

Lemma getitem_jc m jc : dget m "__jsonclass__" = Some jc -> py_getitem (VDict m) jsonclass_key = Ok jc.
Proof. unfold dget, py_getitem, jsonclass_key. now intros ->. Qed.

(** whatever the "__jsonclass__" member is: unless its element 0 is an acceptable name, the
    descriptor is rejected before any import or construction *)
Lemma head_rejects_bad_name E cl m jc :
  dget m "__jsonclass__" = Some jc ->
  (forall name, py_getitem jc (VInt 0) = Ok name -> name_ok name = false) ->
  exists e, descriptor_head E cl m = (Raise e, []).
Proof.
  intros Hjc Hname. unfold descriptor_head. rewrite (getitem_jc m jc Hjc).
  destruct (py_getitem jc (VInt 0)) as [name|e]; [|eauto].
  destruct (py_getitem jc (VInt 1)) as [params|e]; [|eauto].
  specialize (Hname name eq_refl).
  destruct (truthy name) eqn:Ht; cbn [negb]; [|eauto].
  destruct name; eauto.
  unfold name_ok in Hname. cbn [truthy] in Ht. rewrite Ht in Hname. cbn [andb] in Hname.
  rewrite Hname. cbn [negb]. eauto.
Qed.

Lemma head_rejects_translation E cl m jc name params :
  dget m "__jsonclass__" = Some jc -> descriptor_shape jc = Some (name, params) ->
  name_ok name = false -> (is_string name = true \/ truthy name = false) ->
  descriptor_head E cl m = (Raise ETranslation, []).
Proof.
  intros Hjc Hshape Hname Hstr. unfold descriptor_head. rewrite (getitem_jc m jc Hjc).
  destruct jc as [| | | | |[|n [|p r]]| | | | | | | |]; try discriminate Hshape.
  assert (n = name /\ p = params) as [-> ->].
  { destruct p; inversion Hshape; auto. }
  cbn [py_getitem index_of]. rewrite nth_py_0, nth_py_1.
  destruct (truthy name) eqn:Ht; cbn [negb]; [|reflexivity].
  destruct Hstr as [Hs|Hs]; [|discriminate Hs].
  destruct name; try discriminate Hs.
  unfold name_ok in Hname. cbn [truthy] in Ht. rewrite Ht in Hname. cbn [andb] in Hname.
  rewrite Hname. reflexivity.
Qed.

Lemma load_descriptor_head_raise V E cl m jc e ev :
  dget m "__jsonclass__" = Some jc -> descriptor_head E cl m = (Raise e, ev) ->
  jc_load_m V E cl (VDict m) = (Raise e, VDict m, ev).
Proof. intros Hd Hh. cbn [jc_load_m]. unfold dhas. rewrite Hd, Hh. reflexivity. Qed.

Lemma unsubscriptable_has_no_name jc :
  match jc with VList _ | VTuple _ | VStr _ | VDict _ => false | _ => true end = true ->
  forall name, py_getitem jc (VInt 0) = Ok name -> name_ok name = false.
Proof. destruct jc; intros H name Hg; try discriminate H; discriminate Hg. Qed.

(** ** A rejection propagates through a frame; only members visited earlier leave events *)

Lemma reject_in_frame E cl f x e :
  frame_ok fixed E cl f = true -> lres_val (jc_load_m fixed E cl x) = Raise e ->
  lres_val (jc_load_m fixed E cl (plug f x)) = Raise e /\
  lres_events (jc_load_m fixed E cl (plug f x)) =
    (frame_events fixed E cl f ++ lres_events (jc_load_m fixed E cl x))%list.
Proof.
  intros Hok Hx. destruct f as [pre post|pre post|pre post|pre post|pre k post];
    cbn [plug jc_load_m frame_events frame_ok v_forward fixed] in *.
  1-4: rewrite load_seq_spec;
       destruct (mapM_visited (fun y => lres_val (jc_load_m fixed E cl y)) pre x post e Hok Hx) as [-> ->];
       rewrite flat_map_app; cbn [flat_map]; now rewrite app_nil_r.
  apply andb_true_iff in Hok as [Hpre Hd].
  rewrite (dhas_keys _ (pre ++ (k, VNone) :: post)), Hd by now rewrite !map_app.
  rewrite load_items_spec.
  destruct (mapM_visited (on_snd (fun y => lres_val (jc_load_m fixed E cl y))) pre (k, x) post e) as [-> ->].
  - rewrite (forallb_ext_eq _ _ _ (ok_on_snd _)). exact Hpre.
  - unfold on_snd. cbn [snd]. now rewrite Hx.
  - rewrite flat_map_app. cbn [flat_map snd]. now rewrite app_nil_r.
Qed.
