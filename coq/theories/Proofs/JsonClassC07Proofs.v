(** Proofs about Model/JsonClass.v for property C07: load (dump v) = normi v for every supported
    object graph, by nested induction over [val]. *)
From JR Require Import JsonClass JsonClassEq JsonClassProofs JsonClassFieldsProofs.

Lemma fields_eqb_eq a b : fields_eqb a b = true -> a = b.
Proof.
  apply list_eqb_eq. intros [k x] _ [k' y] [Hk Hx]%andb_true_iff. cbn [fst snd] in *.
  apply String.eqb_eq in Hk. apply val_eqb_eq in Hx. now subst.
Qed.

Lemma list_eqb_str_eq (a b : list str) : list_eqb String.eqb a b = true -> a = b.
Proof. apply list_eqb_eq. intros x _ y. apply String.eqb_eq. Qed.

Lemma is_json_shape : forall v, is_json v = true -> json_shape v = true.
Proof.
  induction v using val_ind_in; intros Hj; try discriminate Hj; try reflexivity; simpl in *.
  - revert Hj. apply forallb_impl. auto.
  - revert Hj. apply forallb_impl. intros [k x] Hx Hk. cbn [fst snd] in *.
    destruct k; try discriminate Hk. exact (proj2 (H _ x Hx) Hk).
Qed.

Lemma is_json_normi : forall v, is_json v = true -> normi v = v.
Proof.
  induction v using val_ind_in; intros Hj; try discriminate Hj; try reflexivity; simpl in *; f_equal.
  - rewrite <- (map_id l) at 2. apply map_ext_in. intros x Hx. exact (H x Hx (forallb_In Hj Hx)).
  - rewrite <- (map_id m) at 2. apply map_ext_in. intros [k x] Hx. pose proof (forallb_In Hj Hx) as Hk.
    cbn [fst snd] in *. destruct k; try discriminate Hk. now rewrite (proj2 (H _ x Hx) Hk).
Qed.

Lemma not_is_some {A} (o : option A) : negb (is_some o) = true -> o = None.
Proof. now destruct o. Qed.

Lemma settable_keys E c d (sds : list (str * val)) :
  forallb (fun kd => settable E c d (fst kd)) sds = true -> mem_str "__jsonclass__" (map fst sds) = false.
Proof.
  intros H. destruct (mem_str _ _) eqn:Hm; [|reflexivity].
  apply mem_str_In, in_map_iff in Hm as [[k x] [Hk Hin]]. pose proof (forallb_In H Hin) as Hs.
  cbn [fst] in *. now subst k.
Qed.

(** ** The constructor arguments a serialisation method hands out are bound back to their names *)

Lemma get_params_ok fs ps :
  forallb (fun p => is_some (flookup p fs)) ps = true ->
  get_params fs ps = Ok (map (fun p => (p, match flookup p fs with Some x => x | None => VNone end)) ps).
Proof.
  induction ps as [|p r IH]; intros H; [reflexivity|]. cbn [forallb] in H. apply andb_true_iff in H as [H1 H2].
  cbn [get_params map]. destruct (flookup p fs); [|discriminate H1]. now rewrite (IH H2).
Qed.

Lemma bind_params_list (g : str -> val) ps :
  bind_params ps (VList (map snd (map (fun p => (p, g p)) ps))) = Ok (map (fun p => (p, g p)) ps).
Proof.
  unfold bind_params. rewrite !map_length, Nat.eqb_refl. f_equal.
  induction ps as [|p r IH]; [reflexivity|]. cbn [map combine snd]. now rewrite IH.
Qed.

Lemma bind_params_dict (g : str -> val) ps :
  bind_params ps (VDict (map skey (map (fun p => (p, g p)) ps))) = Ok (map (fun p => (p, g p)) ps).
Proof.
  unfold bind_params.
  replace (forallb _ (map skey _)) with true by (symmetry; rewrite !forallb_map; now apply forallb_forall).
  cbn [negb]. rewrite !map_length, Nat.eqb_refl. cbn [andb].
  assert (H : forall p, In p ps -> dget (map skey (map (fun p => (p, g p)) ps)) p = Some (g p)).
  { intros p. rewrite dget_skey. induction ps as [|q r IH]; [intros []|]. intros [<-|Hin]; cbn [map flookup].
    - now rewrite String.eqb_refl.
    - destruct (String.eqb p q) eqn:Epq; [apply String.eqb_eq in Epq; now subst | auto]. }
  replace (forallb _ ps) with true by (symmetry; apply forallb_forall; intros p Hp; unfold dhas; now rewrite (H p Hp)).
  f_equal. apply map_ext_in. intros p Hp. now rewrite (H p Hp).
Qed.

Section Roundtrip.
  Variable hfun : N -> val -> res val.
  Variable E : pyenv.
  Variable cfg : config.
  Variable sm ia : str.
  Hypothesis Hnh : no_handlers cfg = true.

  Definition RT (v : val) : Prop :=
    exists d, jc_dump hfun fixed E cfg sm ia [] v = Ok d /\
              lres_val (jc_load_m fixed E (cf_classes cfg) d) = Ok (normi v).

  Lemma RT_members l :
    (forall x, In x l -> RT x) ->
    exists ds, mapM (jc_dump hfun fixed E cfg sm ia []) l = Ok ds /\
               mapM (fun d => lres_val (jc_load_m fixed E (cf_classes cfg) d)) ds = Ok (map normi l).
  Proof. apply mapM_chain. Qed.

  Lemma RT_values {K} (m : list (K * val)) :
    (forall kx, In kx m -> RT (snd kx)) ->
    exists ds, mapM (on_snd (jc_dump hfun fixed E cfg sm ia [])) m = Ok ds /\
               mapM (on_snd (fun d => lres_val (jc_load_m fixed E (cf_classes cfg) d))) ds
               = Ok (map (fun kv => (fst kv, normi (snd kv))) m).
  Proof.
    intros H. apply mapM_chain. intros kx Hin. destruct (H kx Hin) as [d [Hd Hl]].
    exists (fst kx, d). unfold on_snd. cbn [fst snd]. now rewrite Hd, Hl.
  Qed.

  Lemma known_type_nohandlers x : known_type E cfg x = supported_ty (type_of x).
  Proof.
    unfold known_type, no_handlers in *. destruct (cf_handlers cfg); [|discriminate Hnh].
    cbn [existsb]. apply orb_false_r.
  Qed.

  (** an instance whose dumped form is the descriptor of its class [c] with constructor arguments [params],
      which bind to [args], and attributes [sds] round-trips when the reloaded attributes [kzs], assigned to
      the object the constructor gives, are the normalised fields *)
  Lemma RT_instance c d fs params args sds kzs :
    find_class (e_ctab E) c = Some d -> resolves E (cf_classes cfg) d c = true ->
    match c_kind d with KEnum | KDecimal => false | _ => true end = true ->
    jc_dump hfun fixed E cfg sm ia [] (VInst c fs) = Ok (descriptor_dict (VStr (dump_name d)) params (map skey sds)) ->
    nodup_str (map fst sds) = true -> forallb (fun kd => settable E c d (fst kd)) sds = true ->
    is_params params = true -> bind_params (c_params d) params = Ok args ->
    mapM (on_snd (fun d => lres_val (jc_load_m fixed E (cf_classes cfg) d))) sds = Ok kzs ->
    fset_all (ctor_fields (e_ctab E) c args) kzs = map (fun kv => (fst kv, normi (snd kv))) fs ->
    RT (VInst c fs).
  Proof.
    intros Hd Hres Hk Hdump Hnd Hset Hp Hb Hl Hre. eexists. split; [exact Hdump|].
    rewrite descriptor_dict_skey, fset_all_under by eauto using settable_keys.
    change (map skey (?kj :: sds)) with ((jsonclass_key, snd kj) :: map skey sds). cbn [snd].
    rewrite (load_val_descriptor _ _ d c params _ _ Hres Hp (construct_inst E c d params args Hd Hk Hp Hb)).
    rewrite (setattr_loop_val _ _ c d sds _ Hd Hset), Hl. cbn [bind normi]. now rewrite Hre.
  Qed.

  Theorem roundtrip_supported : forall v, supported E (cf_classes cfg) sm ia v = true -> RT v.
  Proof.
    pose proof (no_handlers_none cfg Hnh) as Hf.
    induction v using val_ind_in; intros Hs; try discriminate Hs; cbn [supported] in Hs.
    1-5: eexists; split; [cbn; rewrite Hf; reflexivity | reflexivity].
    1-4: destruct (RT_members l) as [ds [Hds Hl]];
         [ intros x Hx; exact (H x Hx (forallb_In Hs Hx))
         | exists (VList ds); split;
           [ erewrite dump_seq by (reflexivity || apply Hf); now rewrite Hds
           | now rewrite load_val_list, Hl ] ].
    - (* dict *)
      apply andb_true_iff in Hs as [Hd Hs]. apply negb_true_iff in Hd.
      destruct (RT_values m) as [ds [Hds Hl]]; [intros [k x] Hx; exact (proj2 (H k x Hx) (forallb_In Hs Hx))|].
      exists (VDict ds). split; [now rewrite dump_dict, Hds by apply Hf|].
      rewrite load_val_dict, Hl; [reflexivity|]. now rewrite (dhas_keys ds m) by exact (mapM_snd_keys Hds).
    - (* instance *)
      destruct (find_class (e_ctab E) c) as [d|] eqn:Hd; [|discriminate Hs].
      (* the conjuncts of [supported] on an instance, in its order; [Hkind] is the part that depends on
         whether the class has a serialisation method *)
      unfold field_names_ok in Hs. rewrite !andb_true_iff in Hs. destruct Hs as [[[Hres Hsm] [Hnd Hset]] Hkind].
      apply not_is_some in Hsm.
      change (forallb (fun kx => settable E c d (fst kx)) fs = true) in Hset.
      destruct (mro_find (e_ctab E) c (ser_pred sm)) as [ds|] eqn:Hser.
      + (* serialisation method: (params, attrs) as it returns them; the attributes are JSON already *)
        rewrite !andb_true_iff in Hkind. destruct Hkind as [[[[Hk Hpar] Hjson] Hpres] Hreload].
        apply list_eqb_str_eq in Hpar. apply fields_eqb_eq in Hreload.
        set (args := map _ (c_params d)) in Hreload. set (attrs := filter _ fs) in Hreload.
        eapply (RT_instance c d fs _ args attrs attrs Hd Hres); [now destruct (c_kind d) | | | | | | |].
        * rewrite (dump_method _ _ _ _ _ _ _ c fs d ds (Hf _) Hd Hsm Hser). unfold serialize_call.
          rewrite Hpar, (get_params_ok fs _ Hpres). cbn [bind fst snd]. reflexivity.
        * now apply nodup_str_filter.
        * now apply forallb_filter.
        * (* the params are a list or a dict, which the constructor binds back to [args] *)
          now destruct (c_kind ds) as [| |[|]| |].
        * subst args; destruct (c_kind ds) as [| |[|]| |]; auto using bind_params_dict, bind_params_list.
        * (* load is the identity on the attributes *) apply mapM_id. intros [k x] [Hin _]%filter_In.
          pose proof (forallb_In Hjson Hin) as [Hj Hn]%andb_true_iff.
          unfold on_snd. cbn [fst snd] in *. now rewrite (load_json_id fixed E x (is_json_shape x Hj) Hn).
        * (* and so is [normi] on the fields *)
          rewrite Hreload. rewrite <- (map_id fs) at 1. apply map_ext_in. intros [k x] Hin.
          pose proof (forallb_In Hjson Hin) as [Hj _]%andb_true_iff. cbn [fst snd] in *. now rewrite is_json_normi.
      + (* automatic fields: every field is dumped, the constructor takes no argument *)
        rewrite !andb_true_iff in Hkind. destruct Hkind as [[[[[[Hkd Hpar] Hia] Hnoign] Hslots] Hfields] Hreload].
        apply not_is_some in Hia, Hnoign. apply fields_eqb_eq in Hreload.
        destruct (RT_values fs) as [sds [Hdump Hl]].
        { intros [k x] Hx. pose proof (forallb_In Hfields Hx) as [_ Hsx]%andb_true_iff. exact (H k x Hx Hsx). }
        pose proof (mapM_snd_keys Hdump) as Hkeys.
        destruct (c_params d) eqn:Hparams; [|discriminate Hpar].
        eapply (RT_instance c d fs (VList []) [] sds _ Hd Hres);
          [now destruct (c_kind d) | | | | reflexivity | now rewrite Hparams | exact Hl | exact Hreload].
        * apply (dump_auto _ _ _ _ _ _ _ c fs d); auto. exists [], sds.
          split; [|split; [reflexivity|split; [|split; [|apply descriptor_dict_skey]]]].
          -- unfold ignore_list. now rewrite Hia, Hnoign.
          -- rewrite filter_true; [exact Hdump|]. apply forallb_forall. intros kx Hx.
             pose proof (forallb_In Hfields Hx) as [Hty _]%andb_true_iff.
             unfold field_kept. rewrite known_type_nohandlers, Hty. reflexivity.
          -- erewrite forallb_ext_eq; [exact Hslots|]. intros s. cbn beta. now destruct (flookup s fs).
        * now rewrite Hkeys.
        * now rewrite (forallb_keys _ sds fs Hkeys).
    - (* Decimal *)
      destruct (find_class (e_ctab E) "decimal.Decimal") as [d|] eqn:Hd; [|discriminate Hs].
      apply andb_true_iff in Hs as [[Hk Hdec]%andb_true_iff Hres].
      eexists. split; [exact (dump_decimal _ _ _ _ _ _ _ s d (Hf _) Hd)|].
      exact (load_val_descriptor E _ d _ (VList [VStr s]) [] _ Hres eq_refl (construct_decimal E _ d s Hd Hk Hdec)).
    - (* enum member *)
      destruct (find_class (e_ctab E) c) as [d|] eqn:Hd; [|discriminate Hs].
      apply andb_true_iff in Hs as [[Hk Hmem]%andb_true_iff Hres].
      destruct (find (py_eq v) (c_members d)) as [m'|] eqn:Hfind; [|discriminate Hmem].
      apply val_eqb_eq in Hmem. subst m'.
      eexists. split; [exact (dump_enum _ _ _ _ _ _ _ c v d (Hf _) Hd)|].
      exact (load_val_descriptor E _ d c (VList [v]) [] _ Hres eq_refl (construct_enum E c d v v Hd Hk Hfind)).
  Qed.
End Roundtrip.

