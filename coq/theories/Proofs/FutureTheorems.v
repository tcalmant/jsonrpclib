(** * FutureTheorems — the invariant of the FutureResult model holds after every schedule; what it says
    state by state, from which Props/C16.v reads the C16 theorems *)
From Coq Require Import List Bool Arith Lia.
From RecordUpdate Require Import RecordSet.
From JR Require Import Sched Future FutureInv FutureInvC FutureInvN FutureInvO.
Import ListNotations.

Section Thm.
Variable c : cfg.

Definition Inv (s : st) : Prop := InvA c s /\ InvB s /\ InvG s /\ InvN c s /\ InvO c s.

Lemma Inv_init : Inv init.
Proof.
  unfold Inv, InvA, InvB, InvG, InvN, InvO. repeat split; try discriminate.
  (* N3, of the empty call log *)
  constructor.
Qed.

Lemma Inv_step : forall s m s', Inv s -> step c s m = Some s' -> Inv s'.
Proof.
  intros s m s' (A & B & G & N & O) H. pose proof (A_step c s m s' A H) as A'.
  destruct m as [[|k|j]|[|k|j]]; cbn [step] in H; try discriminate H.
  - (* execute() *)
    split; [exact A'|]. split; [exact (B_x c s s' A B H)|]. split; [exact (G_x c s s' A G H)|].
    split; [exact (N_x c s s' A B N H) | exact (O_x c s s' A O H)].
  - (* set_callback() of k writes nothing that an observer reads *)
    split; [exact A'|]. split; [exact (B_r c s k s' A B H)|]. split; [exact (G_r c s k s' A G H)|].
    split; [exact (N_r c s k s' A B N H) | unstep H; exact O].
  - (* done() / result() of j write only j's own fields *)
    split; [exact A'|]. split; [unstep H; exact B|]. split; [unstep H; exact G|].
    split; [unstep H; exact N | exact (O_o c s (Go (TO j)) j s' A O (or_introl eq_refl) H)].
  - split; [exact A'|]. split; [unstep H; exact B|]. split; [unstep H; exact G|].
    split; [unstep H; exact N | exact (O_o c s (Fire (TO j)) j s' A O (or_intror eq_refl) H)].
Qed.

Theorem Inv_run_from : forall sched s, Inv s -> Inv (run (step c) sched s).
Proof. intros sched s H. apply run_invariant with (step := step c); [exact Inv_step | exact H]. Qed.

Theorem Inv_run : forall sched, Inv (run_future c sched).
Proof. intros sched. exact (Inv_run_from sched init Inv_init). Qed.

(** ** What the invariant says of a state [s] (every [run_future c sched] is one, by [Inv_run]) *)

Lemma out_done : forall s, InvA c s -> x_out (xp s) = true -> ev s = true.
Proof. intros s (_ & _ & _ & _ & _ & D3' & _) E. unfold D3 in *. rewrite D3'. destruct (xp s); try discriminate E; reflexivity. Qed.

Lemma observed_ended : forall s j o, InvO c s -> oobs s j = Some o -> op s j = O_end.
Proof.
  intros s j o (O1' & _) Ho. destruct (op s j) eqn:E; try reflexivity; rewrite (O1' j) in Ho by congruence; discriminate Ho.
Qed.

(** the calls of callback [i]: at most one by execute(), at most one by its own set_callback() *)
Lemma ncalls_eq : forall s i, InvN c s ->
  ncalls s i = (if x_end (xp s) && opt_is (xcb s) i then 1 else 0) + (if r_end (rp s i) && rcomp s i then 1 else 0).
Proof. intros s i (N1' & N2' & _). rewrite ncalls_split, N1', N2'. reflexivity. Qed.

(** and never both: the callback execute() saved was registered before completion *)
Lemma not_both : forall s i, InvB s -> opt_is (xcb s) i = true -> rcomp s i = false /\ r_past (rp s i) = true.
Proof.
  intros s i (_ & _ & _ & _ & _ & Js & _) E. destruct (xcb s) as [k|] eqn:Ek; [|discriminate E].
  apply Nat.eqb_eq in E; subst k. destruct (Js i Ek); auto.
Qed.

Lemma called_out : forall s i, InvB s -> InvN c s -> 0 < ncalls s i -> x_out (xp s) = true.
Proof.
  intros s i B N H. rewrite (ncalls_eq s i N) in H. destruct B as (Jrc' & _).
  destruct (x_end (xp s)) eqn:E1; [destruct (xp s); try discriminate E1; reflexivity|].
  destruct (r_end (rp s i)); [|cbn in H; lia]. destruct (rcomp s i) eqn:E2; [eauto | cbn in H; lia].
Qed.

(** ** done() / result() *)

Theorem not_done_before_finish : forall s, Inv s ->
  body_finished s = false ->
  done s = false /\
  (forall j o, oobs s j = Some o -> o = ObsDone false \/ o = ObsTimeout) /\
  (forall j, op s j = O_start ->
     match obsk c j with
     | ODone => exists s1, step c s (Go (TO j)) = Some s1 /\ oobs s1 j = Some (ObsDone false)
     | OResultT => step c s (Go (TO j)) = None /\
                   exists s1 s2, step c s (Fire (TO j)) = Some s1 /\ step c s1 (Go (TO j)) = Some s2 /\
                                 oobs s2 j = Some ObsTimeout
     | OResult => step c s (Go (TO j)) = None /\ step c s (Fire (TO j)) = None
     end).
Proof.
  intros s ((_ & _ & _ & _ & D2' & D3' & _) & _ & _ & _ & O) Hb.
  unfold body_finished in Hb. destruct (xp s) eqn:Ex; try discriminate Hb.
  unfold D2, D3, done in *. rewrite Ex in *. cbn in D2', D3'.
  split; [exact D3'|]. split.
  - intros j o Ho. pose proof (observed_ended s j o O Ho) as Eo. destruct O as (_ & O2' & _).
    specialize (O2' Ex j). unfold pre_ok in O2'. rewrite Eo in O2'. destruct O2' as [E|E]; rewrite E in Ho; inversion Ho; auto.
  - intros j Hj. unfold step, step_o, o_start, o_fire. rewrite !Hj, !D3'.
    destruct (obsk c j) eqn:Ek.
    + eexists; split; [reflexivity|]. cbn [oobs set]. apply upd_same.
    + split; [reflexivity|]. eexists; eexists. split; [reflexivity|].
      cbn [step step_o op set]. rewrite upd_same. unfold o_read_exc. cbn [exc owaited set]. rewrite D2', upd_same.
      split; [reflexivity|]. cbn [oobs set]. apply upd_same.
    + split; reflexivity.
Qed.

Lemma classified : forall s j o, InvO c s -> oobs s j = Some o ->
  o = expected_obs c (obsk c j) \/ (o = ObsDone false /\ obsk c j = ODone) \/ (o = ObsTimeout /\ obsk c j = OResultT).
Proof.
  intros s j o O Ho. pose proof (observed_ended s j o O Ho) as E. destruct O as (_ & _ & O3'). specialize (O3' j).
  unfold cls in O3'. rewrite E in O3'. destruct O3' as (o' & E' & Hc). congruence.
Qed.

(** observer [j] passed its wait, if at all, with the event set, and has seen neither "not done" nor a timeout.
    Every step keeps this, with no help from the invariant: nothing clears the event *)
Definition after_done (s : st) (j : nat) : Prop :=
  ev s = true /\ (op s j = O_read_exc -> owaited s j = true) /\
  oobs s j <> Some (ObsDone false) /\ oobs s j <> Some ObsTimeout.

Lemma after_done_step : forall j s m s', after_done s j -> step c s m = Some s' -> after_done s' j.
Proof.
  intros j s m s' (Hev & Hw & Hd & Ht) H. unfold after_done.
  destruct m as [[|k|k]|[|k|k]]; cbn [step] in H; try discriminate H.
  - (* execute() only ever sets the event *)
    unstep H; try rewrite notify_writes; simp; (split; [first [exact Hev | reflexivity] | auto]).
  - unstep H; simp; auto.
  - destruct (Nat.eq_dec j k) as [->|Hne].
    2: { unstep H; simp; rewrite !upd_other by assumption; auto. }
    unfold step_o in H. destruct (op s k) eqn:Ek; try discriminate H; unstep H; simp; rewrite !upd_same.
    + (* done() returns the event *) conj; [exact Hev | discriminate | congruence | discriminate].
    + conj; auto.
    + conj; auto.
    + conj; [exact Hev | discriminate | assumption..].
    + conj; [exact Hev | discriminate | assumption..].
    + (* the wait cannot have timed out *) discriminate (Hw eq_refl).
    + (* raise *) conj; [exact Hev | discriminate | destruct (exc s); discriminate..].
    + (* return *) conj; [exact Hev | discriminate..].
  - (* no timeout expires once the event is set *)
    unstep H. congruence.
Qed.

Theorem result_consistent : forall s j, Inv s -> done s = true -> op s j = O_start ->
  forall q o, oobs (run (step c) q s) j = Some o -> o = expected_obs c (obsk c j).
Proof.
  intros s j I Hd Hj q o Ho.
  assert (L : after_done (run (step c) q s) j).
  { apply run_invariant with (step := step c) (Inv := fun s => after_done s j); [exact (after_done_step j)|].
    pose proof I as (_ & _ & _ & _ & (_ & _ & O3')). specialize (O3' j). unfold cls in O3'. rewrite Hj in O3'.
    unfold after_done. rewrite Hj, O3'. conj; [exact Hd | discriminate..]. }
  (* what was observed is classified; the event being set since the call began, it is not one of the other two *)
  destruct (Inv_run_from q s I) as (_ & _ & _ & _ & O). destruct L as (_ & _ & Ld & Lt).
  destruct (classified _ j o O Ho) as [Hc | [(Hc & _) | (Hc & _)]]; congruence.
Qed.

(** ** callbacks *)

(** all calls of execute() and set_callback() that were started have returned *)
Definition settled (s : st) : Prop := xp s = X_end /\ forall i, rp s i = R_end \/ rp s i = R_lock.

Lemma opt_is_hd1 : forall l i, opt_is (hd1 l) i = match l with j :: _ => Nat.eqb j i | [] => false end.
Proof. intros [|j l] i; reflexivity. Qed.

(** a registrar that is not inside set_callback() registered after completion iff it made a call *)
Lemma post_called : forall s i, InvG s -> rp s i = R_end \/ rp s i = R_lock -> inpost s i = r_end (rp s i) && rcomp s i.
Proof.
  intros s i (_ & _ & _ & _ & G4' & G5' & G6' & _) Hr. destruct (inpost s i) eqn:Ep.
  - destruct Hr as [E|E]; [|destruct (G4' i Ep E)]. rewrite (G5' i Ep), E; [reflexivity | rewrite E; reflexivity].
  - rewrite (G6' i Ep). symmetry. apply andb_false_r.
Qed.

Theorem callback_exactly_once : forall s, Inv s -> settled s ->
  forall i,
    ncalls s i = (if owed s i then 1 else 0) /\
    (rp s i = R_lock -> owed s i = false) /\
    (forall k, In k (calls s) -> c_cb k = i ->
       c_res k = out_data (body c) /\ c_exc k = out_exc (body c) /\ c_extra k = Some i).
Proof.
  intros s (_ & B & G & N & _) (Hx & Hr) i.
  (* owed = the callback execute() saved (the head of hpre, G3 at X_end) or registered after completion
     (in hpost: it made its own call, post_called) *)
  assert (Ho : owed s i = opt_is (xcb s) i || r_end (rp s i) && rcomp s i).
  { unfold owed. fold (inpost s i). rewrite (post_called s i G (Hr i)), <- opt_is_hd1. f_equal. f_equal.
    destruct G as (_ & _ & _ & G3' & _). symmetry. apply G3'. rewrite Hx. reflexivity. }
  rewrite Ho, (ncalls_eq s i N), Hx. cbn [x_end andb].
  assert (Hargs : forall k, In k (calls s) -> c_cb k = i ->
            c_res k = out_data (body c) /\ c_exc k = out_exc (body c) /\ c_extra k = Some i).
  { intros k Hk <-. destruct N as (_ & _ & N3' & _). apply (proj1 (Forall_forall _ _) N3') in Hk. unfold good_call in Hk. tauto. }
  pose proof (not_both s i B) as Hxcb. destruct (opt_is (xcb s) i); cbn [orb].
  - (* not by both: the callback execute() saved was registered before completion *)
    destruct (Hxcb eq_refl) as (-> & F). rewrite andb_false_r. conj; [reflexivity | | exact Hargs].
    intros E. rewrite E in F. discriminate F.
  - conj; [reflexivity | intros ->; reflexivity | exact Hargs].
Qed.

(** in EVERY state: no callback is called twice *)
Theorem callback_at_most_once : forall sched i, ncalls (run_future c sched) i <= 1.
Proof.
  intros sched i. destruct (Inv_run sched) as (_ & B & _ & N & _). rewrite (ncalls_eq _ i N).
  destruct (opt_is (xcb (run_future c sched)) i) eqn:E; [destruct (not_both _ i B E) as (-> & _)|];
    rewrite ?andb_false_r; destruct (_ && _); cbn; lia.
Qed.
End Thm.
