(** * PayloadProofs — the vocabulary of the C14 statements, the Payload builders and [dump] in closed form,
    and the shape and distinctness of the generated ids. *)

From JR Require Import Payload.
From Coq Require Import Lia.

(** the version the Payload ends up with: explicit, else the config's, else the global default's *)
Definition resolved_version (dv : val) (cfg : pcfg) (version : val) : res rat :=
  let v := if truthy version then version else pc_version cfg in
  let v := if truthy v then v else dv in
  version_float v.

(** [if not is_response and params is None: params = []] *)
Definition default_params (is_response pv : val) : val :=
  match pv with
  | VNone => if truthy is_response then VNone else VList []
  | _ => pv
  end.

(** non-empty string or number: the caller-supplied ids of the statement *)
Definition supplied_id (i : val) : bool := is_number i || (is_string i && truthy i).

Definition params_member (r : rat) (p' : val) : list (val * val) :=
  if truthy p' || lt11 r then [(VStr "params", params_or_empty p')] else [].
Definition jsonrpc_member (r : rat) (s : str) : list (val * val) :=
  if ge2 r then [(VStr "jsonrpc", VStr s)] else [].

Definition request_members (r : rat) (s : str) (i m p' : val) : list (val * val) :=
  ([(VStr "id", i); (VStr "method", m)] ++ params_member r p' ++ jsonrpc_member r s)%list.

Definition notify_members (r : rat) (s : str) (m p' : val) : list (val * val) :=
  if ge2 r then ([(VStr "method", m)] ++ params_member r p' ++ jsonrpc_member r s)%list
  else ([(VStr "id", VNone); (VStr "method", m)] ++ params_member r p')%list.

Definition response_members (r : rat) (s : str) (i result : val) : list (val * val) :=
  if ge2 r then [(VStr "result", result); (VStr "id", i); (VStr "jsonrpc", VStr s)]
  else [(VStr "result", result); (VStr "id", i); (VStr "error", VNone)].

Definition error_members (r : rat) (s : str) (i code msg data : val) : list (val * val) :=
  if ge2 r then [(VStr "id", i); (VStr "jsonrpc", VStr s); (VStr "error", error_object code msg data)]
  else [(VStr "result", VNone); (VStr "id", i); (VStr "error", error_object code msg data)].

(** one dump call, as data (for statements about sequences of calls) *)
Record call := mkCall {
  c_cfg : pcfg; c_params : dparams; c_method : val; c_rpcid : val; c_version : val;
  c_response : val; c_notify : val
}.

(** the text of the version member is read only from 2.0 on: [version_str] is what the builders compute,
    [version_text r s] what the statements assume of [s] *)
Definition version_str (r : rat) : res str := if ge2 r then float_str r else Ok "".
Definition version_text (r : rat) (s : str) : Prop := ge2 r = true -> float_str r = Ok s.

Lemma version_text_str r s : version_text r s -> version_str r = Ok (if ge2 r then s else "").
Proof. unfold version_text, version_str. destruct (ge2 r); auto. Qed.

Lemma version_str_text r s : version_str r = Ok s -> version_text r s.
Proof. unfold version_text, version_str. intros H G. now rewrite G in H. Qed.

Lemma response_eq i r x :
  payload_response (mkPayload i r) x = do s <- version_str r; Ok (VDict (response_members r s i x)).
Proof.
  unfold payload_response, response_members, version_str. cbn [p_version p_id].
  destruct (ge2 r); [destruct (float_str r)|]; reflexivity.
Qed.

Lemma error_eq i r c m d :
  payload_error (mkPayload i r) c m d = do s <- version_str r; Ok (VDict (error_members r s i c m d)).
Proof.
  unfold payload_error. rewrite response_eq. destruct (version_str r) as [s|e]; [|reflexivity].
  unfold response_members, error_members. cbn [bind p_version]. destruct (ge2 r); reflexivity.
Qed.

Lemma plan_fault jc dv cfg c ms d m rpcid version resp notify :
  dump_plan jc dv cfg (PFault c ms d) m rpcid version resp notify =
  do r <- resolved_version dv cfg version; do s <- version_str r;
  Ok (DoneMsg (VDict (error_members r s rpcid c ms d))).
Proof.
  unfold dump_plan, resolved_version, payload_init. cbn [valid_params negb]. rewrite andb_false_r.
  destruct (version_float _) as [r|e]; [|reflexivity]. cbn [bind]. rewrite error_eq.
  destruct (version_str r); reflexivity.
Qed.

Section Proofs.
  Variable fresh : nat -> str.
  Variable jc : val -> res val.
  Hypothesis fresh_inj : forall a b, fresh a = fresh b -> a = b.

  Definition translated (cfg : pcfg) (pv : val) : res val := if pc_jsonclass cfg then jc pv else Ok pv.

  Definition id_used (rpcid : val) (n : nat) : val * nat :=
    if needs_fresh_id rpcid then (VStr (fresh n), S n) else (rpcid, n).

  Lemma request_eq i r m p' n :
    payload_request fresh (mkPayload i r) m p' n =
    if is_string m
    then do s <- version_str r;
         Ok (VDict (request_members r s (fst (id_used i n)) m p'), mkPayload (fst (id_used i n)) r, snd (id_used i n))
    else Raise EValue.
  Proof.
    unfold payload_request, id_used, request_members, params_member, jsonrpc_member, version_str.
    destruct (is_string m); [|reflexivity]. cbn [negb p_id p_version].
    destruct (needs_fresh_id i); cbn [fst snd p_id p_version];
      (destruct (ge2 r); [destruct (float_str r)|]); destruct (truthy p' || lt11 r); reflexivity.
  Qed.

  Lemma notify_eq i r m p' n :
    payload_notify fresh (mkPayload i r) m p' n =
    if is_string m
    then do s <- version_str r;
         Ok (VDict (notify_members r s m p'), mkPayload (fst (id_used i n)) r, snd (id_used i n))
    else Raise EValue.
  Proof.
    unfold payload_notify. rewrite request_eq. destruct (is_string m); [|reflexivity].
    destruct (version_str r) as [s|e]; [|reflexivity]. cbn [bind p_version].
    unfold request_members, notify_members, params_member, jsonrpc_member.
    destruct (ge2 r); destruct (truthy p' || lt11 r); reflexivity.
  Qed.

  (** the message a successful dump of plain params returns, and the id counter afterwards *)
  Definition message (r : rat) (s : str) (m rpcid resp notify p' : val) (n : nat) : val * nat :=
    if truthy resp then (VDict (response_members r s rpcid p'), n)
    else (VDict (if truthy notify then notify_members r s m p'
                 else request_members r s (fst (id_used rpcid n)) m p'), snd (id_used rpcid n)).

  (** the three invalid combinations never produce a message, whatever the other arguments are *)
  Definition invalid_combination (pv m rpcid resp : val) : bool :=
    (negb (is_string m) && negb (truthy resp))                                        (* non-string method for a request *)
    || (is_string m && negb (valid_params (truthy resp) (PVal (default_params resp pv)))) (* non-container params with a method *)
    || (truthy resp && match rpcid with VNone => true | _ => false end).               (* response without id *)

  (** dump of plain params: the checks in the order the code makes them, then the message *)
  Lemma dump_pval dv cfg pv m rpcid version resp notify n :
    dump jc fresh dv cfg (PVal pv) m rpcid version resp notify n =
    if is_string m && negb (valid_params (truthy resp) (PVal (default_params resp pv))) then Raise EType
    else do r <- resolved_version dv cfg version;
         if negb (is_string m) && negb (truthy resp) then Raise EValue
         else do p' <- translated cfg (default_params resp pv);
              if truthy resp && match rpcid with VNone => true | _ => false end then Raise EValue
              else do s <- version_str r; Ok (message r s m rpcid resp notify p' n).
  Proof.
    unfold dump, dump_plan, resolved_version, payload_init, translated, message.
    replace (match pv with VNone => if truthy resp then PVal pv else PVal (VList []) | _ => PVal pv end)
      with (PVal (default_params resp pv)) by (destruct pv; try reflexivity; cbn; now destruct (truthy resp)).
    destruct (is_string m && negb _); [reflexivity|].
    destruct (version_float _) as [r|e]; [|reflexivity]. cbn [bind].
    destruct (is_string m) eqn:Hm; destruct (truthy resp); cbn [negb andb]; try reflexivity.
    all: destruct (if pc_jsonclass cfg then _ else _) as [p'|e]; [|reflexivity]; cbn [bind].
    - destruct rpcid; try reflexivity; rewrite response_eq; now destruct (version_str r).
    - destruct (truthy notify); cbn [bind dump_finish]; rewrite ?notify_eq, ?request_eq, Hm;
        now destruct (version_str r).
    - destruct rpcid; try reflexivity; rewrite response_eq; now destruct (version_str r).
  Qed.

  Lemma dump_fault dv cfg c ms d m rpcid version resp notify n :
    dump jc fresh dv cfg (PFault c ms d) m rpcid version resp notify n =
    do r <- resolved_version dv cfg version; do s <- version_str r;
    Ok (VDict (error_members r s rpcid c ms d), n).
  Proof.
    unfold dump. rewrite plan_fault. destruct (resolved_version dv cfg version) as [r|e]; [|reflexivity].
    cbn [bind]. destruct (version_str r); reflexivity.
  Qed.

  Lemma message_text r s m rpcid resp notify p' n : version_text r s ->
    (do s' <- version_str r; Ok (message r s' m rpcid resp notify p' n)) = Ok (message r s m rpcid resp notify p' n).
  Proof.
    intros Hs. rewrite (version_text_str r s Hs).
    unfold message, response_members, notify_members, request_members, jsonrpc_member. now destruct (ge2 r).
  Qed.

  Lemma dump_pval_spec dv cfg pv m rpcid version resp notify n r s p' :
    invalid_combination pv m rpcid resp = false ->
    resolved_version dv cfg version = Ok r -> version_text r s ->
    translated cfg (default_params resp pv) = Ok p' ->
    dump jc fresh dv cfg (PVal pv) m rpcid version resp notify n = Ok (message r s m rpcid resp notify p' n).
  Proof.
    unfold invalid_combination. intros H Hver Hs Ht.
    apply orb_false_iff in H as [H H3]. apply orb_false_iff in H as [H1 H2].
    rewrite dump_pval, H1, H2, H3, Hver, Ht. now apply message_text.
  Qed.

  Lemma valid_request pv m rpcid resp :
    is_string m = true -> truthy resp = false -> valid_params false (PVal (default_params resp pv)) = true ->
    invalid_combination pv m rpcid resp = false.
  Proof. intros Hm Hr Hv. unfold invalid_combination. now rewrite Hm, Hr, Hv. Qed.

  Lemma default_params_response resp pv : truthy resp = true -> default_params resp pv = pv.
  Proof. intros H. unfold default_params. rewrite H. now destruct pv. Qed.

  Lemma valid_response pv m rpcid resp :
    truthy resp = true -> rpcid <> VNone -> (is_string m = true -> valid_params true (PVal pv) = true) ->
    invalid_combination pv m rpcid resp = false.
  Proof.
    intros Hr Hid Hv. unfold invalid_combination. rewrite default_params_response, Hr by assumption.
    destruct (is_string m); [rewrite Hv by reflexivity|]; now destruct rpcid.
  Qed.

  Lemma dump_pval_ok dv cfg pv m rpcid version resp notify n x :
    dump jc fresh dv cfg (PVal pv) m rpcid version resp notify n = Ok x ->
    invalid_combination pv m rpcid resp = false /\
    exists r s p', resolved_version dv cfg version = Ok r /\ version_text r s /\
      translated cfg (default_params resp pv) = Ok p' /\ x = message r s m rpcid resp notify p' n.
  Proof.
    rewrite dump_pval. unfold invalid_combination.
    destruct (is_string m && negb _); [discriminate|].
    destruct (resolved_version dv cfg version) as [r|e]; [|discriminate]. cbn [bind].
    destruct (negb (is_string m) && negb (truthy resp)); [discriminate|].
    destruct (translated cfg _) as [p'|e]; [|discriminate]. cbn [bind].
    destruct (truthy resp && _); [discriminate|].
    destruct (version_str r) as [s|e] eqn:S; [|discriminate]. intros [= <-].
    split; [reflexivity|]. exists r, s, p'. auto using version_str_text.
  Qed.

  Lemma dump_fault_spec dv cfg c ms d m rpcid version resp notify n r s :
    resolved_version dv cfg version = Ok r -> version_text r s ->
    dump jc fresh dv cfg (PFault c ms d) m rpcid version resp notify n =
    Ok (VDict (error_members r s rpcid c ms d), n).
  Proof.
    intros Hver Hs. rewrite dump_fault, Hver. cbn [bind]. rewrite (version_text_str r s Hs).
    unfold error_members. now destruct (ge2 r).
  Qed.

  Lemma dump_fault_counter {dv cfg c ms dt m rpcid version resp notify n d n'} :
    dump jc fresh dv cfg (PFault c ms dt) m rpcid version resp notify n = Ok (d, n') -> n' = n.
  Proof.
    rewrite dump_fault. destruct (resolved_version dv cfg version) as [r|e]; [|discriminate]. cbn [bind].
    destruct (version_str r); [|discriminate]. now intros [= _ ->].
  Qed.

  Lemma supplied_id_used i n : supplied_id i = true -> id_used i n = (i, n).
  Proof.
    unfold supplied_id, id_used, needs_fresh_id. intros H.
    destruct (is_number i) eqn:N; [rewrite andb_false_r; reflexivity|].
    cbn [orb] in H. apply andb_true_iff in H as [_ H]. rewrite H. reflexivity.
  Qed.

  Lemma dump_request_id dv cfg pv m rpcid version resp notify n d n' :
    truthy resp = false -> truthy notify = false ->
    dump jc fresh dv cfg (PVal pv) m rpcid version resp notify n = Ok (VDict d, n') ->
    (dget d "id", n') = (Some (fst (id_used rpcid n)), snd (id_used rpcid n)).
  Proof.
    intros Hr Hn H. apply dump_pval_ok in H as [_ (r & s & p' & _ & _ & _ & E)].
    unfold message in E. rewrite Hr, Hn in E. now injection E as -> ->.
  Qed.

  Lemma id_used_counter i n : snd (id_used i n) = n \/ snd (id_used i n) = S n.
  Proof. unfold id_used. destruct (needs_fresh_id i); [right|left]; reflexivity. Qed.

  Lemma id_used_fresh i n : snd (id_used i n) = S n -> fst (id_used i n) = VStr (fresh n).
  Proof. unfold id_used. destruct (needs_fresh_id i); cbn; [reflexivity|lia]. Qed.

  (** a dump advances the id counter by at most one; when it does, the id member of the message is [fresh n],
      or the null of a 1.0 notification *)
  Lemma dump_counter {dv cfg p m rpcid version resp notify n d n'} :
    dump jc fresh dv cfg p m rpcid version resp notify n = Ok (d, n') ->
    n' = n \/ n' = S n /\ forall mm i, d = VDict mm -> dget mm "id" = Some i -> i = VStr (fresh n) \/ i = VNone.
  Proof.
    destruct p as [pv|c ms dt]; intros H.
    - apply dump_pval_ok in H as [_ (r & s & p' & _ & _ & _ & E)]. unfold message in E.
      destruct (truthy resp); injection E as -> ->; [now left|].
      destruct (id_used_counter rpcid n) as [Hc|Hc]; [now left|right].
      split; [exact Hc|]. intros mm i [= <-]. destruct (truthy notify).
      + unfold notify_members, params_member, jsonrpc_member.
        destruct (ge2 r), (truthy p' || lt11 r); cbn; intros [= <-]; auto.
      + cbn. intros [= <-]. left. now apply id_used_fresh.
    - left. exact (dump_fault_counter H).
  Qed.

  Definition run_call (dv : val) (c : call) (n : nat) : res (val * nat) :=
    dump jc fresh dv (c_cfg c) (c_params c) (c_method c) (c_rpcid c) (c_version c) (c_response c) (c_notify c) n.

  (** the id member of the message a call produced, when this call had to generate it *)
  Definition generated_id (c : call) (out : res (val * nat)) (n : nat) : list val :=
    match out with
    | Ok (VDict d, n') => if Nat.eqb n' (S n) then match dget d "id" with Some i => [i] | None => [] end else []
    | _ => []
    end.

  Fixpoint run_calls (dv : val) (cs : list call) (n : nat) : list val * nat :=
    match cs with
    | [] => ([], n)
    | c :: rest =>
        let out := run_call dv c n in
        let n1 := match out with Ok (_, n') => n' | Raise _ => n end in
        let '(ids, nf) := run_calls dv rest n1 in
        ((generated_id c out n ++ ids)%list, nf)
    end.

  Definition next (dv : val) (c : call) (n : nat) : nat :=
    match run_call dv c n with Ok (_, n') => n' | Raise _ => n end.

  Lemma run_calls_cons dv c rest n :
    fst (run_calls dv (c :: rest) n) = (generated_id c (run_call dv c n) n ++ fst (run_calls dv rest (next dv c n)))%list.
  Proof. cbn [run_calls]. fold (next dv c n). now destruct (run_calls dv rest (next dv c n)). Qed.

  Lemma call_ids dv c n :
    (n <= next dv c n)%nat /\
    (generated_id c (run_call dv c n) n = [] \/
     next dv c n = S n /\ exists i, generated_id c (run_call dv c n) n = [i] /\ (i = VStr (fresh n) \/ i = VNone)).
  Proof.
    unfold next, generated_id, run_call.
    destruct (dump _ _ _ _ _ _ _ _ _ _ _) as [[d n']|e] eqn:H; [|auto].
    destruct (dump_counter H) as [-> | [-> Hi]]; (split; [lia|]).
    - left. destruct d; try reflexivity. destruct (Nat.eqb_spec n (S n)); [lia|reflexivity].
    - rewrite Nat.eqb_refl. destruct d; auto. destruct (dget m "id") as [i|] eqn:D; auto.
      right. split; [reflexivity|]. exists i. split; [reflexivity|]. exact (Hi _ _ eq_refl D).
  Qed.

  Definition is_str_val (v : val) : Prop := match v with VStr _ => True | _ => False end.

  (** a generated id is the null of a 1.0 notification or [fresh k] for a counter [k] not before the start *)
  Lemma run_calls_bound dv cs : forall n i,
    In i (fst (run_calls dv cs n)) -> i = VNone \/ exists k, (n <= k)%nat /\ i = VStr (fresh k).
  Proof.
    induction cs as [|c rest IH]; intros n i; [intros []|].
    rewrite run_calls_cons. destruct (call_ids dv c n) as [Hle G]. intros [Hi|Hi]%in_app_or.
    - destruct G as [E | (_ & j & E & Hj)]; rewrite E in Hi; [destruct Hi|]. destruct Hi as [<-|[]].
      destruct Hj as [-> | ->]; eauto.
    - destruct (IH _ _ Hi) as [->|(k & Hk & ->)]; [auto|]. right. exists k. split; [lia|reflexivity].
  Qed.

  (** the generated string ids are pairwise distinct: a later call starts at a later counter *)
  Lemma run_calls_ids dv cs : forall n, NoDup (filter is_string (fst (run_calls dv cs n))).
  Proof.
    induction cs as [|c rest IH]; intros n; [constructor|].
    rewrite run_calls_cons, filter_app.
    destruct (call_ids dv c n) as [_ [-> | (En & i & -> & [-> | ->])]]; cbn [filter is_string app]; try apply IH.
    constructor; [|apply IH]. intros [Hin _]%filter_In.
    apply run_calls_bound in Hin as [|(k & Hk & [= E%fresh_inj])]; [discriminate|lia].
  Qed.

  (** ** The codec: loads inverts the encoder up to JSON normalisation *)

  Context {text : Type}.
  Variable is_empty : text -> bool.
  Variable enc : val -> res text.
  Variable dec : text -> res val.
  Variable jl : val -> res val.
  Hypothesis enc_dec : forall v, json_ok v = true ->
    exists t, enc v = Ok t /\ is_empty t = false /\ dec t = Ok (norm v).

  Lemma loads_value cfg' x :
    json_ok x = true -> (pc_jsonclass cfg' = false \/ jl (norm x) = Ok (norm x)) ->
    exists t, enc x = Ok t /\ loads is_empty dec jl cfg' t = Ok (norm x).
  Proof.
    intros Hj Hl. destruct (enc_dec x Hj) as [t [He [Hne Hdec]]]. exists t. split; [exact He|].
    unfold loads. rewrite Hne, Hdec. cbn [bind]. unfold load.
    destruct (norm x) eqn:N; try reflexivity;
      (destruct Hl as [Hl|Hl]; [rewrite Hl; reflexivity | destruct (pc_jsonclass cfg'); [exact Hl|reflexivity]]).
  Qed.

  Lemma loads_dumps dv cfg cfg' p m resp rpcid version notify n d n' :
    dump jc fresh dv cfg p m rpcid version resp notify n = Ok (d, n') ->
    json_ok d = true ->
    (pc_jsonclass cfg' = false \/ jl (norm d) = Ok (norm d)) ->
    exists t, dumps jc fresh enc dv cfg p m resp rpcid version notify n = Ok (t, n')
              /\ loads is_empty dec jl cfg' t = Ok (norm d).
  Proof.
    intros Hd Hj Hl. destruct (loads_value cfg' d Hj Hl) as (t & He & Hlo).
    exists t. split; [|exact Hlo]. unfold dumps. rewrite Hd. cbn [bind]. now rewrite He.
  Qed.

End Proofs.

(** *** The five listed version spellings under a default / 1.0 / 2.0 configuration *)

Definition listed_config_version (v : val) : bool :=
  val_eqb v (VFlt (F 1 1)) || val_eqb v (VFlt (F 2 1)).

Definition listed_version (v : val) : bool :=
  val_eqb v VNone || listed_config_version v || val_eqb v (VStr "1.0") || val_eqb v (VStr "2.0").

(** 2 or 1, as the spelling (or, for None, the configuration) says *)
Definition version_number (cfg : pcfg) (v : val) : Z :=
  let w := if truthy v then v else pc_version cfg in
  match w with
  | VFlt (F n _) => n
  | VStr s => if String.eqb s "2.0" then 2 else 1
  | _ => 0
  end.

Lemma listed_config_version_inv v :
  listed_config_version v = true -> v = VFlt (F 1 1) \/ v = VFlt (F 2 1).
Proof.
  unfold listed_config_version. intros H. apply orb_true_iff in H as [H|H]; apply val_eqb_eq in H; auto.
Qed.

Lemma listed_version_inv v :
  listed_version v = true ->
  v = VNone \/ v = VFlt (F 1 1) \/ v = VFlt (F 2 1) \/ v = VStr "1.0" \/ v = VStr "2.0".
Proof.
  unfold listed_version. intros H.
  apply orb_true_iff in H as [H|H]; [|apply val_eqb_eq in H; auto 6].
  apply orb_true_iff in H as [H|H]; [|apply val_eqb_eq in H; auto 6].
  apply orb_true_iff in H as [H|H]; [apply val_eqb_eq in H; auto|].
  apply listed_config_version_inv in H as [H|H]; auto.
Qed.

Lemma listed_versions_resolve dv cfg v :
  listed_version v = true -> listed_config_version (pc_version cfg) = true ->
  exists r, resolved_version dv cfg v = Ok r /\
            ge2 r = Z.eqb (version_number cfg v) 2 /\ lt11 r = Z.eqb (version_number cfg v) 1 /\
            version_text r "2.0".
Proof.
  intros Hv Hc. unfold resolved_version, version_number, version_text.
  apply listed_version_inv in Hv. apply listed_config_version_inv in Hc.
  destruct Hv as [->|[->|[->|[->| ->]]]]; destruct Hc as [->| ->]; cbn [truthy];
    (eexists; split; [vm_compute; reflexivity|]; vm_compute; repeat split; auto; intros; discriminate).
Qed.
