(** Consequences of the growth invariant (PoolInvH) for C09 / C10, for any state with Inv2 and I_growth:
    a task accepted by a running pool is never stranded. *)
From JR Require Import PoolInvDefs PoolInvE PoolInvG PoolInvH PoolSafety PoolLifecycle.

(** C10_growth (the claim is spelled out in Props/C10.v) for any state with Inv2 and I_growth, with maxT s for max_threads *)
Theorem growth_general s :
  Inv2 s -> I_growth s -> stopped s = false -> ctl s <> CSTQsize ->
  let backlog := Z.of_nat (length (q s)) + Z.of_nat (count holding (ws s) (next_w s)) in
  let takers := Z.of_nat (count serving (ws s) (next_w s)) - Z.of_nat (count retiring (ws s) (next_w s)) in
  ((forall c, ewin (cpc (cs s c)) = false) ->
     backlog <= takers + need 0 (ctl s) \/ maxT s <= nb_threads s + need 0 (ctl s)) /\
  (forall c, ewin (cpc (cs s c)) = true ->
     backlog - 1 <= takers + need 0 (ctl s) \/ maxT s <= nb_threads s + need 0 (ctl s)).
Proof.
  intros J Hg Hst Hq backlog takers. pose proof (j_inv1 _ J) as I.
  destruct (Hg Hst Hq) as [G1 G0].
  pose proof (i_unf _ I) as Hu. pose proof (i_nb _ I) as Hn. unfold I_unf in Hu. unfold I_nb in Hn.
  pose proof (clear_pending_running s (j_flag _ J) Hst) as Hcp.
  split.
  - intros Hall. specialize (G0 Hall). unfold gclaim, nb_eff in G0. lia.
  - intros c _. unfold gclaim, nb_eff in G1. lia.
Qed.

(** C10_growth_at_rest, likewise: once start() has returned it owes no thread, and the window is empty by hypothesis *)
Theorem growth_at_rest s :
  Inv2 s -> I_growth s -> start_done s = true -> (forall c, ewin (cpc (cs s c)) = false) ->
  let idle := Z.of_nat (count serving (ws s) (next_w s)) - Z.of_nat (count retiring (ws s) (next_w s))
              - Z.of_nat (count holding (ws s) (next_w s)) in
  (Z.of_nat (length (q s)) <= idle \/ nb_threads s = maxT s) /\
  (q s <> [] -> 1 <= nb_threads s).
Proof.
  intros J Hg Hsd Hall idle. pose proof (j_inv1 _ J) as I.
  destruct (j_flag _ J) as (_ & _ & _ & F4 & _). destruct (F4 Hsd) as (Hst & _ & Hsr).
  assert (Hq : ctl s <> CSTQsize) by (intros E; rewrite E in Hsr; discriminate).
  destruct (growth_general s J Hg Hst Hq) as [G _]. specialize (G Hall).
  rewrite (need_zero _ Hsr) in G.
  destruct (i_bound _ I) as [Hb _]. destruct (i_cfg _ I) as [Hmx _].
  pose proof (i_nb _ I) as Hn. unfold I_nb in Hn.
  split.
  - lia.
  - intros Hne. destruct (q s) as [|x l] eqn:Eq; [congruence|]. cbn [length] in G. lia.
Qed.
