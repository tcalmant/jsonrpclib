(** The pool lock: the depth at which each label holds it (I_lock), what acquire and release do to it,
    and that no setter but set_lock touches it. *)
From JR Require Export PoolBase.

Definition wdepth (l : wlabel) : nat :=
  match l with
  | WActInc | WUnlock1 | WPendDec | WActDec | WUnlock2 | WTest | WNbDec | WUnlock3R | WUnlock3
  | WFRemove | WFNbDec | WFUnlock => 1
  | _ => 0
  end.
Definition kdepth (k : kont) : nat := match k with KEnq => 1 | _ => 0 end.
Definition cdepth (l : clabel) : nat :=
  match l with
  | CEPut | CEPend | CETest | CEUnlock => 1
  | CSLock k => kdepth k
  | CSTest k | CSNbInc k | CSTStart k _ | CSAppend k _ | CSUnlock k => S (kdepth k)
  | CSPPut _ | CSPCopy | CSPUnlock _ => 1
  | CCLGet | CCLDone | CCLUnlock | CJTest _ JClear | CJQJoin JClear => 1
  | _ => 0
  end.

Definition I_lock (s : st) : Prop :=
  (forall w, lockd s (TW w) = wdepth (wpc (ws s w))) /\
  (forall c, lockd s (TC c) = cdepth (cpc (cs s c))).

(** [acquires] / [releases]: [L] is the lock after thread [t] took / gave back one level *)
Definition others_free (s : st) (t : thr) (L : option (thr * nat)) : Prop :=
  forall u, u <> t -> lockd (set_lock s L) u = 0%nat /\ lockd s u = 0%nat.
(** a lock is never recorded with depth 0 *)
Definition normal (L : option (thr * nat)) : Prop := match L with Some (_, O) => False | _ => True end.
Definition acquires (s : st) (t : thr) (L : option (thr * nat)) : Prop :=
  lockd (set_lock s L) t = S (lockd s t) /\ others_free s t L.
Definition releases (s : st) (t : thr) (L : option (thr * nat)) : Prop :=
  lockd s t = S (lockd (set_lock s L) t) /\ others_free s t L /\ normal L.

Lemma acquires_normal s t L : acquires s t L -> normal L.
Proof. intros [E _]. unfold lockd in E. cbn [lock set_lock] in E. destruct L as [[o [|d]]|]; [destruct (thr_eqb o t)| |]; cbn; auto; discriminate. Qed.

Lemma acquire_acquires s t s0 : acquire s t = Some s0 -> exists L, s0 = set_lock s L /\ acquires s t L.
Proof.
  unfold acquire, acquires, others_free, lockd.
  destruct (lock s) as [[o d]|]; [destruct (thr_eqb o t) eqn:Eo; [apply thr_eqb_eq in Eo; subst o | discriminate]|].
  (* the lock was [t]'s or free: it is [t]'s now, one level deeper *)
  all: intros [= <-]; eexists; (split; [reflexivity|]); cbn [lock set_lock]; rewrite thr_eqb_refl; (split; [reflexivity|]).
  all: intros u Hu; rewrite thr_eqb_neq by congruence; split; reflexivity.
Qed.
Lemma release_releases s t s0 : release s t = Some s0 -> exists L, s0 = set_lock s L /\ releases s t L.
Proof.
  unfold release, releases, others_free, lockd. destruct (lock s) as [[o [|d]]|]; try discriminate.
  destruct (thr_eqb o t) eqn:Eo; [apply thr_eqb_eq in Eo; subst o | discriminate].
  intros [= <-]. eexists; split; [reflexivity|]. cbn [lock set_lock].
  (* the last level: the lock is free; otherwise it stays [t]'s *)
  destruct d; rewrite ?thr_eqb_refl; (split; [reflexivity|]); (split; [|exact I]);
    intros u Hu; rewrite ?thr_eqb_neq by congruence; split; reflexivity.
Qed.

Lemma lockd_excl s t u : t <> u -> (0 < lockd s t)%nat -> lockd s u = 0%nat.
Proof.
  unfold lockd. destruct (lock s) as [[o d]|]; [|reflexivity]. intros Hne.
  destruct (thr_eqb o t) eqn:E1; [|lia]. apply thr_eqb_eq in E1. subst. intros _. now rewrite thr_eqb_neq.
Qed.

Lemma lockd_set_lock s L t : lockd (set_lock s L) t = match L with Some (o, d) => if thr_eqb o t then d else 0%nat | None => 0%nat end.
Proof. reflexivity. Qed.

Lemma lockd_set_w s w x t : lockd (set_w s w x) t = lockd s t. Proof. reflexivity. Qed.
Lemma lockd_set_c s w x t : lockd (set_c s w x) t = lockd s t. Proof. reflexivity. Qed.
Lemma lockd_set_queue s a b c t : lockd (set_queue s a b c) t = lockd s t. Proof. reflexivity. Qed.
Lemma lockd_set_qmutex s a t : lockd (set_qmutex s a) t = lockd s t. Proof. reflexivity. Qed.
Lemma lockd_set_counters s a b c t : lockd (set_counters s a b c) t = lockd s t. Proof. reflexivity. Qed.
Lemma lockd_set_threads s a b t : lockd (set_threads s a b) t = lockd s t. Proof. reflexivity. Qed.
Lemma lockd_set_stopped s a b c t : lockd (set_stopped s a b c) t = lockd s t. Proof. reflexivity. Qed.
Lemma lockd_set_next_task s a t : lockd (set_next_task s a) t = lockd s t. Proof. reflexivity. Qed.
Lemma lockd_set_hist s a b c d e t : lockd (set_hist s a b c d e) t = lockd s t. Proof. reflexivity. Qed.
Lemma lockd_set_jmon s a b t : lockd (set_jmon s a b) t = lockd s t. Proof. reflexivity. Qed.
Lemma lockd_wgo s w l t : lockd (wgo s w l) t = lockd s t. Proof. reflexivity. Qed.
Lemma lockd_cgo s w l t : lockd (cgo s w l) t = lockd s t. Proof. reflexivity. Qed.
Lemma lockd_task_done s t : lockd (task_done s) t = lockd s t. Proof. reflexivity. Qed.
