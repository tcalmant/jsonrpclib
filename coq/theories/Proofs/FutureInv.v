(** * FutureInv — invariants of the FutureResult model (Model/Future.v) for ALL schedules: tactics and
    the first invariant groups (lock discipline, outcome, callback protocol); continued in FutureInvC /
    FutureInvN / FutureInvO.  Small invariant conjuncts grouped by topic, each group preserved by the
    steps of each kind of thread, assembled by [run_invariant] of Base/Sched.v (in FutureTheorems).  A step preserves the
    conjuncts whose fields it does not write by conversion ([assumption]); the thread that moves reasons
    from what the invariant says at its own pc and from mutual exclusion ([cs_r], [cs_x], [cs_free]). *)
From Coq Require Import List Arith.
From RecordUpdate Require Import RecordSet.
From JR Require Import Sched Future.
Import ListNotations RecordSetNotations.

(** ** Regions of the program counters *)
Definition x_in (p : xpc) : bool := match p with X_set_completed | X_read_cb | X_read_extra | X_unlock => true | _ => false end.
Definition x_out (p : xpc) : bool := match p with X_notify | X_end => true | _ => false end.
Definition x_ge_data (p : xpc) : bool := match p with X_body | X_store_data => false | _ => true end.
Definition x_ge_exc (p : xpc) : bool := match p with X_body | X_store_data | X_store_exc => false | _ => true end.
Definition x_ge_ev (p : xpc) : bool := match p with X_body | X_store_data | X_store_exc | X_event_set => false | _ => true end.
Definition x_ge_lock (p : xpc) : bool := match p with X_body | X_store_data | X_store_exc | X_event_set | X_lock => false | _ => true end.
Definition x_ge_comp (p : xpc) : bool := match p with X_read_cb | X_read_extra | X_unlock | X_notify | X_end => true | _ => false end.
Definition x_ge_rcb (p : xpc) : bool := match p with X_read_extra | X_unlock | X_notify | X_end => true | _ => false end.
Definition x_ge_rex (p : xpc) : bool := match p with X_unlock | X_notify | X_end => true | _ => false end.
Definition x_end (p : xpc) : bool := match p with X_end => true | _ => false end.
Definition r_in (p : rpc) : bool := match p with R_store_cb | R_store_extra | R_read_completed | R_unlock => true | _ => false end.
Definition r_stored (p : rpc) : bool := match p with R_lock | R_store_cb => false | _ => true end.
Definition r_mine (p : rpc) : bool := match p with R_store_extra | R_read_completed | R_unlock => true | _ => false end.
Definition r_mine2 (p : rpc) : bool := match p with R_read_completed | R_unlock => true | _ => false end.
Definition r_past (p : rpc) : bool := match p with R_notify | R_end => true | _ => false end.
Definition r_end (p : rpc) : bool := match p with R_end => true | _ => false end.
Definition holds (s : st) (t : thread) : bool :=
  match lock s, t with Some TX, TX => true | Some (TR a), TR b => Nat.eqb a b | _, _ => false end.
Definition b2n (b : bool) : nat := if b then 1 else 0.
Definition opt_is (o : option nat) (i : nat) : bool := match o with Some j => Nat.eqb j i | None => false end.
Definition hd1 (l : list nat) : option nat := match l with [] => None | x :: _ => Some x end.

Ltac simp := cbn [ev data exc lock completed cb extra xp xcb xextra xout rp rcomp op owaited oobs calls logged hdone hpre hpost set] in *.
Ltac pcs := cbn [x_in x_out x_ge_data x_ge_exc x_ge_ev x_ge_lock x_ge_comp x_ge_rcb x_ge_rex x_end r_in r_stored r_mine r_mine2 r_past r_end
                 andb orb hd1 opt_is] in *.

(* case analysis on the pc of the thread that moves and on the guards of its transition; what is learnt
   is named Guard, Guard0, .. in the order of the tests *)
Ltac unstep H :=
  unfold step, step_x, step_r, step_o in H;
  repeat match type of H with
  | (match ?x with _ => _ end) = _ => let G := fresh "Guard" in destruct x eqn:G; try discriminate H
  end;
  unfold x_body, x_store_data, x_store_exc, x_event_set, x_lock, x_set_completed, x_read_cb, x_read_extra, x_unlock, x_notify,
         r_lock, r_store_cb, r_store_extra, r_read_completed, r_unlock, r_notify,
         o_start, o_fire, o_read_exc, o_reraise, o_read_data in H;
  repeat match type of H with
  | (match ?x with _ => _ end) = _ => let G := fresh "Guard" in destruct x eqn:G; try discriminate H
  end;
  injection H as <-.

Ltac conj := repeat match goal with |- _ /\ _ => split end.

(* case on whether a quantified thread is the one that moved *)
Ltac who := repeat match goal with
  | |- context [upd _ ?i _ ?i] => rewrite upd_same
  | H : context [upd _ ?i _ ?i] |- _ => rewrite upd_same in H
  | H : context [Nat.eqb ?i ?i] |- _ => rewrite Nat.eqb_refl in H
  | n : ?j <> ?i |- context [upd _ ?i _ ?j] => rewrite (upd_other _ i _ j n)
  | n : ?j <> ?i, H : context [upd _ ?i _ ?j] |- _ => rewrite (upd_other _ i _ j n) in H
  | n : ?j <> ?i, H : context [Nat.eqb ?j ?i] |- _ => rewrite (proj2 (Nat.eqb_neq j i) n) in H
  | |- context [upd _ ?i _ ?j] => destruct (Nat.eq_dec j i) as [->|]
  | H : context [upd _ ?i _ ?j] |- _ => destruct (Nat.eq_dec j i) as [->|]
  | H : context [Nat.eqb ?j ?i] |- _ => destruct (Nat.eq_dec j i) as [->|]
  end.

Ltac rw := repeat match goal with
  | E : xp _ = _ |- _ => rewrite ?E in *; revert E
  | E : rp _ _ = _ |- _ => rewrite ?E in *; revert E
  | E : lock _ = _ |- _ => rewrite ?E in *; revert E
  end; intros.

(* closes the goals that follow from the hypotheses in context (among them the instances at the thread that
   moves, posed before the call) by evaluating the regions ([pc]) at the known pcs; leaves the others *)
Ltac routine_with pc := try solve [intros; simp; rw; pc; who; rw; pc; solve [eauto 3 | congruence]].
Ltac routine := routine_with pcs.

(** what [notify] does to each field (it only touches the call log), and as one record update *)
Lemma nf_ev : forall c t w x s, ev (notify c t w x s) = ev s. Proof. intros c t [i|] x s; reflexivity. Qed.
Lemma nf_data : forall c t w x s, data (notify c t w x s) = data s. Proof. intros c t [i|] x s; reflexivity. Qed.
Lemma nf_exc : forall c t w x s, exc (notify c t w x s) = exc s. Proof. intros c t [i|] x s; reflexivity. Qed.
Lemma nf_lock : forall c t w x s, lock (notify c t w x s) = lock s. Proof. intros c t [i|] x s; reflexivity. Qed.
Lemma nf_completed : forall c t w x s, completed (notify c t w x s) = completed s. Proof. intros c t [i|] x s; reflexivity. Qed.
Lemma nf_cb : forall c t w x s, cb (notify c t w x s) = cb s. Proof. intros c t [i|] x s; reflexivity. Qed.
Lemma nf_extra : forall c t w x s, extra (notify c t w x s) = extra s. Proof. intros c t [i|] x s; reflexivity. Qed.
Lemma nf_xp : forall c t w x s, xp (notify c t w x s) = xp s. Proof. intros c t [i|] x s; reflexivity. Qed.
Lemma nf_xcb : forall c t w x s, xcb (notify c t w x s) = xcb s. Proof. intros c t [i|] x s; reflexivity. Qed.
Lemma nf_xextra : forall c t w x s, xextra (notify c t w x s) = xextra s. Proof. intros c t [i|] x s; reflexivity. Qed.
Lemma nf_xout : forall c t w x s, xout (notify c t w x s) = xout s. Proof. intros c t [i|] x s; reflexivity. Qed.
Lemma nf_rp : forall c t w x s, rp (notify c t w x s) = rp s. Proof. intros c t [i|] x s; reflexivity. Qed.
Lemma nf_rcomp : forall c t w x s, rcomp (notify c t w x s) = rcomp s. Proof. intros c t [i|] x s; reflexivity. Qed.
Lemma nf_op : forall c t w x s, op (notify c t w x s) = op s. Proof. intros c t [i|] x s; reflexivity. Qed.
Lemma nf_owaited : forall c t w x s, owaited (notify c t w x s) = owaited s. Proof. intros c t [i|] x s; reflexivity. Qed.
Lemma nf_oobs : forall c t w x s, oobs (notify c t w x s) = oobs s. Proof. intros c t [i|] x s; reflexivity. Qed.
Lemma nf_hdone : forall c t w x s, hdone (notify c t w x s) = hdone s. Proof. intros c t [i|] x s; reflexivity. Qed.
Lemma nf_hpre : forall c t w x s, hpre (notify c t w x s) = hpre s. Proof. intros c t [i|] x s; reflexivity. Qed.
Lemma nf_hpost : forall c t w x s, hpost (notify c t w x s) = hpost s. Proof. intros c t [i|] x s; reflexivity. Qed.
Lemma nf_calls_some : forall c t i x s, calls (notify c t (Some i) x s) = mkCall i t (data s) (exc s) x :: calls s.
Proof. reflexivity. Qed.
Lemma nf_calls_none : forall c t x s, calls (notify c t None x s) = calls s.
Proof. reflexivity. Qed.
Lemma nf_logged_some : forall c t i x s, logged (notify c t (Some i) x s) = if raises (rkind c i) then S (logged s) else logged s.
Proof. reflexivity. Qed.
Lemma nf_logged_none : forall c t x s, logged (notify c t None x s) = logged s.
Proof. reflexivity. Qed.
Lemma notify_writes : forall c t w x s,
  notify c t w x s = s <| calls := calls (notify c t w x s) |> <| logged := logged (notify c t w x s) |>.
Proof. intros c t [i|] x []; reflexivity. Qed.

Lemma mine_in : forall p, r_mine p = true -> r_in p = true.   Proof. intros []; auto. Qed.
Lemma mine2_in : forall p, r_mine2 p = true -> r_in p = true. Proof. intros []; auto. Qed.
Lemma stored_past : forall p, r_stored p = true -> r_in p = false -> r_past p = true. Proof. intros []; auto. Qed.
Lemma comp_out : forall p, x_ge_comp p = true -> x_in p = false -> x_out p = true. Proof. intros []; auto. Qed.
Lemma comp_lock : forall p, x_ge_comp p = true -> x_ge_lock p = true. Proof. intros []; auto. Qed.
Lemma lock_comp : forall p, x_ge_lock p = true -> x_in p = false -> x_ge_comp p = true. Proof. intros []; auto. Qed.
Lemma lock_in : forall p, x_ge_lock p = true -> x_ge_rcb p = false -> x_in p = true. Proof. intros []; auto. Qed.
Lemma rcb_lock : forall p, x_ge_rcb p = true -> x_ge_lock p = true. Proof. intros []; auto. Qed.

Lemma holds_free : forall s t, lock s = None -> holds s t = false.
Proof. intros s t E; unfold holds; rewrite E; reflexivity. Qed.

Lemma holds_true : forall s t, holds s t = true -> lock s = Some t.
Proof.
  intros s t; unfold holds. destruct (lock s) as [[|a|a]|], t as [|b|b]; try discriminate; [reflexivity|].
  intros E; apply Nat.eqb_eq in E; congruence.
Qed.

Lemma holds_other : forall s t u, lock s = Some t -> u <> t -> holds s u = false.
Proof.
  intros s t u E N. destruct (holds s u) eqn:Hu; [|reflexivity]. apply holds_true in Hu. congruence.
Qed.

Section Inv.
Variable c : cfg.

(** ** Group A: lock discipline; the outcome fields, the event, the completion flags are functions of the executor's pc *)
Definition L1 s := holds s TX = x_in (xp s).
Definition L2 s := forall i, holds s (TR i) = r_in (rp s i).
Definition L3 s := forall j, lock s <> Some (TO j).
Definition D1 s := data s = if x_ge_data (xp s) then out_data (body c) else None.
Definition D2 s := exc s = if x_ge_exc (xp s) then out_exc (body c) else None.
Definition D3 s := ev s = x_ge_ev (xp s).
Definition D4 s := completed s = x_ge_comp (xp s).
Definition D5 s := hdone s = x_ge_lock (xp s).
Definition D6 s := xout s = if x_end (xp s) then Some (xcont (body c)) else None.
Definition InvA s := L1 s /\ L2 s /\ L3 s /\ D1 s /\ D2 s /\ D3 s /\ D4 s /\ D5 s /\ D6 s.

Lemma D_step : forall s m s', D1 s /\ D2 s /\ D3 s /\ D4 s /\ D5 s /\ D6 s -> step c s m = Some s' ->
  D1 s' /\ D2 s' /\ D3 s' /\ D4 s' /\ D5 s' /\ D6 s'.
Proof.
  intros s m s' (H4 & H5 & H6 & H7 & H8 & H9) H. unfold D1, D2, D3, D4, D5, D6 in *.
  (* the executor's transitions are evaluated at its pc, the others write none of these fields *)
  unstep H; try rewrite notify_writes; simp; conj; solve [assumption | reflexivity | congruence].
Qed.

Lemma L_x : forall s s', L1 s /\ L2 s /\ L3 s -> step_x c s = Some s' -> L1 s' /\ L2 s' /\ L3 s'.
Proof.
  intros s s' (H1 & H2 & H3) H. unfold L1, L2, L3 in *.
  unfold step_x in H. destruct (xp s) eqn:Ex; try discriminate H; unstep H; try rewrite notify_writes.
  all: conj; simp; try assumption; try discriminate; try reflexivity.
  - (* x_lock: the lock was free, no registrar held it *)
    intros i. rewrite <- H2. symmetry. exact (holds_free s (TR i) Guard).
  - (* x_unlock: the executor held the lock, no registrar did *)
    intros i. rewrite <- H2. symmetry. apply (holds_other s TX); [exact (holds_true s TX H1) | discriminate].
Qed.

Lemma L_r : forall s k s', L1 s /\ L2 s /\ L3 s -> step_r c k s = Some s' -> L1 s' /\ L2 s' /\ L3 s'.
Proof.
  intros s k s' (H1 & H2 & H3) H. unfold L1, L2, L3 in *. pose proof (H2 k) as Hk.
  unfold step_r in H. destruct (rp s k) eqn:Ek; try discriminate H; unstep H.
  all: conj; simp; try assumption; try discriminate.
  (* moving inside its region, or outside it, k keeps or keeps not having the lock *)
  3-5, 8: intros i; who; [exact Hk | apply H2].
  - (* r_lock: the lock was free: the executor did not hold it, no other registrar did *)
    rewrite <- H1. symmetry. exact (holds_free s TX Guard).
  - intros i; who.
    + unfold holds; simp. apply Nat.eqb_refl.
    + rewrite <- H2, (holds_free s (TR i) Guard). apply (holds_other _ (TR k)); [reflexivity | congruence].
  - (* r_unlock: k held the lock: the executor did not, no other registrar did *)
    rewrite <- H1. symmetry. apply (holds_other s (TR k)); [exact (holds_true s (TR k) Hk) | discriminate].
  - intros i; who.
    + destruct (rcomp s k); reflexivity.
    + rewrite <- H2. symmetry. apply (holds_other s (TR k)); [exact (holds_true s (TR k) Hk) | congruence].
Qed.

Lemma A_step : forall s m s', InvA s -> step c s m = Some s' -> InvA s'.
Proof.
  intros s m s' (H1 & H2 & H3 & HD) H. pose proof (D_step s m s' HD H) as HD'.
  assert (HL : L1 s' /\ L2 s' /\ L3 s').
  { destruct m as [[|k|j]|[|k|j]]; cbn [step] in H; try discriminate H.
    - apply (L_x s); auto.
    - apply (L_r s k); auto.
    - unstep H; auto.   (* observers do not touch the lock *)
    - unstep H; auto. }
  unfold InvA; tauto.
Qed.

(** data before event: once the event is set the outcome is stored *)
Lemma done_outcome : forall s, InvA s -> ev s = true -> data s = out_data (body c) /\ exc s = out_exc (body c).
Proof.
  intros s (_ & _ & _ & D1' & D2' & D3' & _) E. unfold D1, D2, D3 in *. rewrite D3' in E.
  destruct (xp s); try discriminate E; auto.
Qed.

(** mutual exclusion, as the later groups use it *)
Lemma cs_r : forall s k, InvA s -> r_in (rp s k) = true ->
  lock s = Some (TR k) /\ x_in (xp s) = false /\ forall i, i <> k -> r_in (rp s i) = false.
Proof.
  intros s k (H1 & H2 & _) Hk. rewrite <- H2 in Hk. apply holds_true in Hk.
  split; [exact Hk|]. split; [rewrite <- H1 | intros i N; rewrite <- H2]; apply (holds_other _ _ _ Hk); congruence.
Qed.

Lemma cs_x : forall s, InvA s -> x_in (xp s) = true -> lock s = Some TX /\ forall i, r_in (rp s i) = false.
Proof.
  intros s (H1 & H2 & _) Hx. rewrite <- H1 in Hx. apply holds_true in Hx.
  split; [exact Hx|]. intros i; rewrite <- H2; apply (holds_other _ _ _ Hx); discriminate.
Qed.

Lemma cs_free : forall s, InvA s -> lock s = None -> x_in (xp s) = false /\ forall i, r_in (rp s i) = false.
Proof.
  intros s (H1 & H2 & _) E. split; [rewrite <- H1 | intros i; rewrite <- H2]; apply holds_free, E.
Qed.

(** ** Group B: the callback protocol
    Jrc: a registrar has seen [completed] only once the executor has left its region;
    Jcb: the stored callback belongs to a registrar that has stored it; Jmine, Jmine2: from its store to its
    unlock a registrar finds its own callback, then its own extra, in the fields;
    Jpair: the stored extra goes with the stored callback, except between the two stores;
    Jsaved: the callback execute() saved was registered by a set_callback() that has left its region without
    seeing [completed] (so it will not notify); Jxsync, Jxpair: execute() saves the stored callback, then its extra;
    Jnotify: a registrar is about to notify only if it has seen [completed] *)
Definition Jrc s := forall i, rcomp s i = true -> x_out (xp s) = true.
Definition Jcb s := forall i, cb s = Some i -> r_stored (rp s i) = true.
Definition Jmine s := forall i, r_mine (rp s i) = true -> cb s = Some i.
Definition Jmine2 s := forall i, r_mine2 (rp s i) = true -> extra s = Some i.
Definition Jpair s := forall i, cb s = Some i -> extra s = Some i \/ rp s i = R_store_extra.
Definition Jsaved s := forall i, xcb s = Some i -> r_past (rp s i) = true /\ rcomp s i = false.
Definition Jxsync s := xp s = X_read_extra -> xcb s = cb s.
Definition Jxpair s := x_ge_rex (xp s) = true -> forall i, xcb s = Some i -> xextra s = Some i.
Definition Jnotify s := forall i, rp s i = R_notify -> rcomp s i = true.
Definition InvB s := Jrc s /\ Jcb s /\ Jmine s /\ Jmine2 s /\ Jpair s /\ Jsaved s /\ Jxsync s /\ Jxpair s /\ Jnotify s.

Lemma B_x : forall s s', InvA s -> InvB s -> step_x c s = Some s' -> InvB s'.
Proof.
  intros s s' A (B1 & B2 & B3 & B4 & B5 & B6 & B7 & B8 & B9) H.
  pose proof (cs_x s A) as CS.
  unfold InvB, Jrc, Jcb, Jmine, Jmine2, Jpair, Jsaved, Jxsync, Jxpair, Jnotify in *.
  unfold step_x in H. destruct (xp s) eqn:Ex; try discriminate H; unstep H; try rewrite notify_writes.
  all: conj; try assumption; routine.
  all: destruct CS as (_ & Hr); [reflexivity|].
  - (* x_read_cb, Jsaved: the executor is inside its region, so the registrar whose callback is stored (Jcb)
       is past its own; had it seen [completed], the executor would be out (Jrc) *)
    intros i Hi; simp. split; [apply stored_past; auto|].
    destruct (rcomp s i) eqn:E; [discriminate (B1 i E) | reflexivity].
  - (* x_read_extra, Jxpair: the callback was read under the lock (Jxsync); its extra is stored (Jpair), as
       no registrar is inside its region *)
    intros _ i Hi; simp. rewrite (B7 eq_refl) in Hi. destruct (B5 i Hi) as [E|E]; [exact E|].
    specialize (Hr i). rewrite E in Hr. discriminate Hr.
Qed.

Lemma B_r : forall s k s', InvA s -> InvB s -> step_r c k s = Some s' -> InvB s'.
Proof.
  intros s k s' A (B1 & B2 & B3 & B4 & B5 & B6 & B7 & B8 & B9) H.
  pose proof (cs_r s k A) as CS. destruct A as (_ & _ & _ & _ & _ & _ & D4' & _).
  unfold InvB, Jrc, Jcb, Jmine, Jmine2, Jpair, Jsaved, Jxsync, Jxpair, Jnotify, D4 in *.
  (* what the invariant says of k itself (Kmine2 serves [routine] only) *)
  pose proof (B2 k) as Kcb. pose proof (B3 k) as Kmine. pose proof (B4 k) as Kmine2. pose proof (B5 k) as Kpair. pose proof (B6 k) as Ksaved.
  unfold step_r in H. destruct (rp s k) eqn:Ek; try discriminate H.
  (* inside its region k excludes the executor and the other registrars *)
  2-5: destruct CS as (_ & Hx & Hr); [reflexivity|].
  all: unstep H; conj; try assumption; routine.
  - (* r_lock, Jpair: k is not the stored callback (Jcb at k) *)
    intros i Hi; simp; who; [discriminate (Kcb Hi) | exact (B5 i Hi)].
  - (* r_store_cb, Jmine: no other registrar is inside its region *)
    intros i Hi; simp; who; [reflexivity|]. apply mine_in in Hi. rewrite Hr in Hi by assumption. discriminate Hi.
  - (* r_store_extra, Jmine2: as for Jmine *)
    intros i Hi; simp; who; [reflexivity|]. apply mine2_in in Hi. rewrite Hr in Hi by assumption. discriminate Hi.
  - (* r_store_extra, Jpair: the stored callback is k's (Jmine at k) *)
    intros i Hi; simp; who; [left; reflexivity|]. rewrite (Kmine eq_refl) in Hi. congruence.
  - (* r_read_completed, Jrc: [completed] is set (D4) and the executor is not inside its region: it is out *)
    intros i Hi; simp; who; [|exact (B1 i Hi)]. apply comp_out; congruence.
  - (* r_read_completed, Jsaved: k is not the callback execute() saved (Jsaved at k) *)
    intros i Hi; simp; who; [|exact (B6 i Hi)]. destruct (Ksaved Hi) as (F & _). discriminate F.
  - (* r_unlock, Jcb *)
    intros i Hi; simp; who; [destruct (rcomp s k); reflexivity | exact (B2 i Hi)].
  - (* r_unlock, Jsaved: as above *)
    intros i Hi; simp; who; [|exact (B6 i Hi)]. destruct (Ksaved Hi) as (F & _). discriminate F.
  - (* r_unlock, Jnotify: k goes to R_notify only if it saw [completed] *)
    intros i Hi; simp; who; [|exact (B9 i Hi)]. destruct (rcomp s k); [reflexivity | discriminate Hi].
  - (* r_notify, Jpair: at k the alternative of Jpair is excluded by its pc *)
    intros i Hi; simp; who; [|exact (B5 i Hi)]. destruct (Kpair Hi) as [E|E]; [left; exact E | discriminate E].
Qed.
End Inv.
