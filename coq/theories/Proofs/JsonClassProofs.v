(** Proofs about Model/JsonClass.v: the plain-data fragment (property C15; the statements are in Props/C15.v). *)
From JR Require Import JsonClass JsonClassEq.

Lemma no_handlers_none cfg : no_handlers cfg = true -> forall t, handler_for cfg t = None.
Proof.
  unfold no_handlers, handler_for. destruct (cf_handlers cfg); [reflexivity | discriminate].
Qed.

Lemma dump_plain_norm hfun V E cfg sm ia ign :
  no_handlers cfg = true ->
  forall v, plain v = true -> jc_dump hfun V E cfg sm ia ign v = Ok (norm v).
Proof.
  intros Hh. pose proof (no_handlers_none cfg Hh) as Hf.
  induction v using val_ind_in; intros Hp; try discriminate Hp.
  1-5: cbn; now rewrite Hf.
  1-4: erewrite dump_seq by (reflexivity || apply Hf); rewrite (mapM_map _ norm); [reflexivity|];
       intros x Hx; exact (H x Hx (forallb_In Hp Hx)).
  rewrite dump_dict by apply Hf. rewrite (mapM_map _ (fun kv => (fst kv, norm (snd kv)))); [reflexivity|].
  intros [k x] Hx. unfold on_snd. cbn [fst snd]. now rewrite (proj2 (H k x Hx) (forallb_In Hp Hx)).
Qed.

Lemma norm_json_shape : forall v, plain v = true -> json_shape (norm v) = true.
Proof.
  induction v using val_ind_in; intros Hp; try discriminate Hp; try reflexivity; simpl in *.
  1-4: rewrite forallb_map; revert Hp; apply forallb_impl; auto.
  rewrite forallb_map. revert Hp. apply forallb_impl. intros [k x] Hx. exact (proj2 (H k x Hx)).
Qed.

Lemma norm_is_json : forall v, plain v = true -> str_keys v = true -> is_json (norm v) = true.
Proof.
  induction v using val_ind_in; intros Hp Hs; try discriminate Hp; try reflexivity; simpl in *.
  1-4: rewrite forallb_map; apply forallb_forall; intros x Hx; apply (H x Hx); eapply forallb_In; eauto.
  rewrite forallb_map. apply forallb_forall. intros [k x] Hx. cbn [fst snd].
  pose proof (forallb_In Hs Hx) as [Hk Hsx]%andb_true_iff. cbn [fst snd] in *.
  destruct k; try discriminate Hk. exact (proj2 (H _ x Hx) (forallb_In Hp Hx) Hsx).
Qed.

Lemma norm_no_descriptor : forall v, no_descriptor v = true -> no_descriptor (norm v) = true.
Proof.
  induction v using val_ind_in; intros Hp; try reflexivity; simpl in *.
  1-4: rewrite forallb_map; revert Hp; apply forallb_impl; auto.
  apply andb_true_iff in Hp as [Hd Hp]. rewrite (dhas_keys _ m), Hd by (rewrite map_map; reflexivity).
  rewrite forallb_map. revert Hp. apply forallb_impl. intros [k x] Hx. exact (proj2 (H k x Hx)).
Qed.

(** every primitive keeps its constructor and its value *)
Lemma norm_leaves : forall v, leaves (norm v) = leaves v.
Proof.
  induction v using val_ind_in; try reflexivity; simpl.
  1-4: rewrite flat_map_map; apply flat_map_ext_in; auto.
  rewrite flat_map_map. apply flat_map_ext_in. intros [k x] Hx. exact (proj2 (H k x Hx)).
Qed.

(** [leaves] lists primitives only, so "constructor-exact" is literal equality of the lists *)
Lemma plain_leaves_prim : forall v, plain v = true -> forallb is_prim (leaves v) = true.
Proof.
  induction v using val_ind_in; intros Hp; try discriminate Hp; try reflexivity; simpl in *;
    apply forallb_forall; intros y Hy; apply in_flat_map in Hy as [x [Hx Hy]].
  1-4: exact (forallb_In (H x Hx (forallb_In Hp Hx)) Hy).
  destruct x as [k x]. exact (forallb_In (proj2 (H k x Hx) (forallb_In Hp Hx)) Hy).
Qed.

(** ** load on descriptor-free JSON shapes is the identity, writes nothing, imports nothing *)

Lemma load_seq_id (f : val -> lres) l :
  (forall x, In x l -> f x = (Ok x, x, [])) -> load_seq f l = (Ok l, l, []).
Proof.
  intros H. induction l as [|x xs IH]; [reflexivity|].
  cbn [load_seq]. rewrite (H x), IH; [reflexivity | intros y Hy; apply H; now right | now left].
Qed.

Lemma load_items_id (f : val -> lres) m :
  (forall k x, In (k, x) m -> f x = (Ok x, x, [])) -> load_items f m = (Ok m, m, []).
Proof.
  intros H. induction m as [|[k x] xs IH]; [reflexivity|].
  cbn [load_items fst snd].
  rewrite (H k x), IH; [reflexivity | intros k' y Hy; apply (H k'); now right | now left].
Qed.

Lemma load_json_id V E :
  forall w, json_shape w = true -> no_descriptor w = true ->
  forall cl, jc_load_m V E cl w = (Ok w, w, []).
Proof.
  induction w using val_ind_in; intros Hj Hn cl; try discriminate Hj; try reflexivity; simpl in *.
  - rewrite load_seq_id; [reflexivity|]. intros x Hx. apply (H x Hx); eapply forallb_In; eauto.
  - apply andb_true_iff in Hn as [Hd Hn]. rewrite Hd, load_items_id; [reflexivity|].
    intros k x Hx. exact (proj2 (H k x Hx) (forallb_In Hj Hx) (forallb_In Hn Hx) _).
Qed.

Lemma assoc_map_values (f : val -> val) k m :
  assoc k (map (fun kv => (fst kv, f (snd kv))) m) = option_map f (assoc k m).
Proof.
  induction m as [|[k' x] r IH]; simpl; [reflexivity|]. destruct (py_eq k k'); [reflexivity | exact IH].
Qed.

(** ** load leaves its argument as it found it, up to the position of "__jsonclass__" *)

(** what [canon] maps over the entries of a dict *)
Definition cv (kv : val * val) : val * val := (fst kv, canon (snd kv)).

Lemma drop_jc_cons k x r :
  drop_jc ((k, x) :: r) = if py_eq jsonclass_key k then drop_jc r else (k, x) :: drop_jc r.
Proof. unfold drop_jc. cbn [filter fst]. destruct (py_eq jsonclass_key k); reflexivity. Qed.

Lemma drop_jc_map_cv m : drop_jc (map cv m) = map cv (drop_jc m).
Proof.
  induction m as [|[k x] r IH]; [reflexivity|]. cbn [map]. unfold cv at 1. cbn [fst snd].
  rewrite !drop_jc_cons. destruct (py_eq jsonclass_key k); cbn [map]; now rewrite IH.
Qed.

Lemma drop_jc_idem m : drop_jc (drop_jc m) = drop_jc m.
Proof.
  induction m as [|[k x] r IH]; [reflexivity|]. rewrite drop_jc_cons.
  destruct (py_eq jsonclass_key k) eqn:Hk; [exact IH|]. rewrite drop_jc_cons, Hk. now rewrite IH.
Qed.

Lemma drop_jc_app a b : drop_jc (a ++ b) = (drop_jc a ++ drop_jc b)%list.
Proof. unfold drop_jc. apply filter_app. Qed.

Lemma dget_drop_jc_app m x :
  dget (drop_jc m ++ [(jsonclass_key, x)]) "__jsonclass__" = Some x.
Proof.
  unfold dget. fold jsonclass_key. induction m as [|[k y] r IH]; [reflexivity|]. rewrite drop_jc_cons.
  destruct (py_eq jsonclass_key k) eqn:Hk; [exact IH|].
  cbn [app assoc]. rewrite Hk. exact IH.
Qed.

(** [after_map] for the setattr loop *)
Lemma setattr_loop_arg {B} E (f : val -> lres) (h : val * val -> B) m :
  (forall kx, In kx m -> h (fst kx, lres_arg (f (snd kx))) = h kx) ->
  forall obj, map h (snd (fst (setattr_loop E f m obj))) = map h (drop_jc m).
Proof.
  intros H. induction m as [|[k x] xs IH]; intros obj; [reflexivity|].
  specialize (IH (fun kx Hy => H kx (or_intror Hy))).
  cbn [setattr_loop fst snd]. rewrite drop_jc_cons.
  destruct (py_eq jsonclass_key k); [apply IH|].
  (* however the step ends, the entry is left as [(k, lres_arg (f x))] *)
  cbn [map]. rewrite <- (H (k, x) (or_introl eq_refl)). unfold lres_arg. cbn [fst snd].
  destruct (f x) as [[[y|e] x'] ev]; [|reflexivity].
  destruct (py_setattr E obj k y) as [obj'|e]; [|reflexivity].
  specialize (IH obj'). destruct (setattr_loop E f xs obj') as [[r2 more'] ev2]. cbn [fst snd map] in *. now rewrite IH.
Qed.

Lemma canon_dict_unfold m :
  canon (VDict m) =
  VDict (drop_jc (map cv m) ++ match dget (map cv m) "__jsonclass__" with
                               | Some x => [(jsonclass_key, x)] | None => [] end).
Proof. reflexivity. Qed.

Lemma canon_restored m rest' raw :
  dget m "__jsonclass__" = Some raw ->
  map cv rest' = map cv (drop_jc m) ->
  canon (VDict (rest' ++ [(jsonclass_key, raw)])) = canon (VDict m).
Proof.
  intros Hraw Hrest. rewrite !canon_dict_unfold, map_app, Hrest, <- drop_jc_map_cv.
  (* on the left too: [drop_jc (map cv m)], then the descriptor entry *)
  change (map cv [(jsonclass_key, raw)]) with [(jsonclass_key, canon raw)].
  rewrite dget_drop_jc_app, drop_jc_app, drop_jc_idem.
  unfold dget in *. rewrite (assoc_map_values canon), Hraw.
  change (drop_jc [(jsonclass_key, canon raw)]) with (@nil (val * val)). now rewrite app_nil_r.
Qed.

Theorem load_pure E :
  forall v cl, canon (lres_arg (jc_load_m fixed E cl v)) = canon v.
Proof.
  induction v using val_ind_in; intros cl; try reflexivity; simpl.
  1-4: rewrite load_seq_spec; unfold lres_arg at 1; cbn [fst snd canon]; f_equal;
       apply after_map; intros x Hx; exact (H x Hx cl).
  assert (HF : forall kx, In kx m -> cv (fst kx, lres_arg (jc_load_m fixed E cl (snd kx))) = cv kx)
    by (intros [k x] Hx; unfold cv; cbn [fst snd]; now rewrite (proj2 (H k x Hx) cl)).
  destruct (dhas m "__jsonclass__") eqn:Hd; simpl.
  - destruct (descriptor_head E cl m) as [[new_obj|e] ev]; [|reflexivity].
    unfold dhas in Hd. destruct (dget m "__jsonclass__") as [raw|] eqn:Hraw; [|discriminate].
    pose proof (setattr_loop_arg E (jc_load_m fixed E cl) cv m HF new_obj) as HL.
    destruct (setattr_loop E (jc_load_m fixed E cl) m new_obj) as [[r rest'] ev2].
    unfold lres_arg. simpl in HL |- *.
    assert (HR := canon_restored m rest' raw Hraw HL). simpl in HR.
    destruct r; exact HR.
  - rewrite load_items_spec. unfold lres_arg at 1. cbn [fst snd].
    now rewrite !canon_dict_unfold, (after_map _ _ cv m HF).
Qed.

Theorem roundtrip hfun E cfg sm ia ign v d cl :
  no_handlers cfg = true -> plain v = true -> no_descriptor v = true ->
  jc_dump hfun fixed E cfg sm ia ign v = Ok d ->
  jc_load_m fixed E cl d = (Ok (norm v), d, []).
Proof.
  intros Hh Hp Hn Hd. rewrite (dump_plain_norm hfun fixed E cfg sm ia ign Hh v Hp) in Hd.
  injection Hd as <-. apply load_json_id; [now apply norm_json_shape | now apply norm_no_descriptor].
Qed.

