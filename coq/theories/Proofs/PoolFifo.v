(** With a single worker (max_threads = 1) task bodies begin in submission order (C09, last clause):
    the queue is sorted by task number, whatever a worker has taken and not begun is older than the
    whole queue, everything that began is older than both; with at most one worker serving the queue
    there is never a second taken-and-not-begun task to overtake. *)
From JR Require Import PoolInvDefs PoolInvA PoolInvC.

Definition qabove (m : nat) (l : list item) : Prop := forall u, (0 < qocc u l)%nat -> (m < u)%nat.
Fixpoint qsorted (l : list item) : Prop :=
  match l with
  | [] => True
  | ISent :: r => qsorted r
  | ITask t :: r => qabove t r /\ qsorted r
  end.
Fixpoint desc (l : list nat) : Prop :=
  match l with [] => True | m :: r => (forall m', In m' r -> (m' < m)%nat) /\ desc r end.

Record I_fifo (s : st) : Prop := {
  f_sorted : qsorted (q s);
  f_held : forall w t, holds_pre t (ws s w) = true -> qabove t (q s);
  f_log_q : forall m, In m (start_log s) -> qabove m (q s);
  f_log_held : forall m w t, In m (start_log s) -> holds_pre t (ws s w) = true -> (m < t)%nat;
  f_log_started : forall m, In m (start_log s) -> (0 < tstarts s m)%nat;
  f_desc : desc (start_log s) }.

Lemma qocc_head t r : (0 < qocc t (ITask t :: r))%nat.
Proof. cbn [qocc item_eqb]. rewrite Nat.eqb_refl. cbn. lia. Qed.
Lemma qabove_tail m it r : qabove m (it :: r) -> qabove m r.
Proof. intros H u Hu. apply H. cbn [qocc]. lia. Qed.
Lemma qabove_head m t r : qabove m (ITask t :: r) -> (m < t)%nat.
Proof. intros H. apply H, qocc_head. Qed.
Lemma qsorted_tail it r : qsorted (it :: r) -> qsorted r.
Proof. destruct it; cbn [qsorted]; tauto. Qed.

Lemma qabove_snoc m l it : qabove m l -> (forall t, it = ITask t -> (m < t)%nat) -> qabove m (l ++ [it]).
Proof.
  intros H Ht u Hu. rewrite qocc_app in Hu. cbn [qocc] in Hu.
  destruct (item_eqb it (ITask u)) eqn:E; [|apply H; cbn [b2n] in Hu; lia].
  destruct it as [t|]; [|discriminate E]. apply Nat.eqb_eq in E. subst u. apply Ht. reflexivity.
Qed.
Lemma qsorted_snoc l it :
  qsorted l -> (forall t, it = ITask t -> forall u, (0 < qocc u l)%nat -> (u < t)%nat) -> qsorted (l ++ [it]).
Proof.
  induction l as [|i r IH]; intros Hs Hb; cbn [app qsorted].
  - destruct it; [split; [intros u Hu; cbn in Hu; lia | exact I] | exact I].
  - assert (Hb' : forall t, it = ITask t -> forall u, (0 < qocc u r)%nat -> (u < t)%nat)
      by (intros t E u Hu; apply (Hb t E); cbn [qocc]; lia).
    destruct i as [t0|]; cbn [qsorted] in Hs; [|apply IH; assumption].
    destruct Hs as [Ha Hs]. split; [|apply IH; assumption].
    apply qabove_snoc; [exact Ha|]. intros t E. apply (Hb t E), qocc_head.
Qed.

Lemma held_lt s w t : I_created s -> I_fresh s -> holds_pre t (ws s w) = true -> (t < next_task s)%nat.
Proof.
  intros [Hc1 _] Hfr Hh. destruct (le_lt_dec (next_task s) t) as [Hle|Hlt]; [exfalso | exact Hlt].
  destruct (Hfr t Hle) as (_ & F2 & _).
  destruct (le_lt_dec (next_w s) w) as [Hw|Hw].
  - rewrite (Hc1 w Hw) in Hh. discriminate Hh.
  - pose proof (count_zero _ _ _ w F2 Hw) as Hz. rewrite (holds_pre_any _ _ Hh) in Hz. discriminate.
Qed.

Lemma single_holder s w w' t t' : maxT s = 1 -> I_created s -> I_nb s -> I_bound s ->
  holds_pre t (ws s w) = true -> holds_pre t' (ws s w') = true -> w' = w.
Proof.
  intros Hmx [Hcr _] Hnb [Hb _] H H'.
  assert (Hlt : forall v u, holds_pre u (ws s v) = true -> (v < next_w s)%nat).
  { intros v u Hv. destruct (le_lt_dec (next_w s) v) as [Hge|Hlt]; [rewrite (Hcr v Hge) in Hv; discriminate Hv | exact Hlt]. }
  apply (count_le1 serving (ws s) (next_w s)); eauto using holds_pre_serving. unfold I_nb in Hnb. lia.
Qed.

(** a worker comes to hold a task it has not begun only by taking it from the head of the queue *)
Lemma WStep_holds_pre {s w h cl l s' u} : WStep s w h cl l s' ->
  holds_pre u (ws s' w) = true -> holds_pre u (mkW l h cl) = true \/ q s = ITask u :: q s'.
Proof.
  destruct 1; simp; rewrite upd_same; cbn [holds_pre wpc]; try discriminate; auto.
  intros E. apply Nat.eqb_eq in E. subst u. right. exact Hq.
Qed.

Lemma fifo_frame s s' :
  (q s' = q s \/ exists it, q s = it :: q s') -> start_log s' = start_log s -> tstarts s' = tstarts s ->
  (forall w t, holds_pre t (ws s' w) = true -> holds_pre t (ws s w) = true \/ q s = ITask t :: q s') ->
  I_fifo s -> I_fifo s'.
Proof.
  intros Hq Hl Ht Hh [F1 F2 F3 F4 F5 F6].
  assert (Hqa : forall m, qabove m (q s) -> qabove m (q s')).
  { intros m Hm. destruct Hq as [->|[it E]]; [exact Hm|]. rewrite E in Hm. eapply qabove_tail; exact Hm. }
  constructor; rewrite ?Hl, ?Ht.
  - destruct Hq as [->|[it E]]; [exact F1|]. rewrite E in F1. eapply qsorted_tail; exact F1.
  - intros w t H. destruct (Hh _ _ H) as [H0|E]; [exact (Hqa _ (F2 _ _ H0))|]. rewrite E in F1. exact (proj1 F1).
  - intros m H. exact (Hqa _ (F3 _ H)).
  - intros m w t Hm H. destruct (Hh _ _ H) as [H0|E]; [exact (F4 _ _ _ Hm H0)|]. apply (qabove_head m t (q s')). rewrite <- E. exact (F3 _ Hm).
  - exact F5.
  - exact F6.
Qed.

Lemma fifo_put s s' it :
  q s' = q s ++ [it] -> start_log s' = start_log s -> tstarts s' = tstarts s ->
  (forall w t, holds_pre t (ws s' w) = true -> holds_pre t (ws s w) = true) ->
  (forall t, it = ITask t -> (forall u, (0 < qocc u (q s))%nat -> (u < t)%nat) /\
                             (forall w u, holds_pre u (ws s w) = true -> (u < t)%nat) /\
                             (forall m, (0 < tstarts s m)%nat -> (m < t)%nat)) ->
  I_fifo s -> I_fifo s'.
Proof.
  intros Hq Hl Ht Hh Hnew [F1 F2 F3 F4 F5 F6]. constructor; rewrite ?Hq, ?Hl, ?Ht.
  - apply qsorted_snoc; [exact F1|]. intros t E. apply (Hnew t E).
  - intros w u H. apply Hh in H. apply qabove_snoc; [exact (F2 _ _ H)|]. intros t E. exact (proj1 (proj2 (Hnew t E)) w u H).
  - intros m H. apply qabove_snoc; [exact (F3 _ H)|]. intros t E. exact (proj2 (proj2 (Hnew t E)) m (F5 m H)).
  - intros m w u Hm H. exact (F4 _ _ _ Hm (Hh _ _ H)).
  - exact F5.
  - exact F6.
Qed.

Lemma P_fifo s t f s' :
  maxT s = 1 -> I_created s -> I_fresh s -> I_nb s -> I_bound s -> I_fifo s -> step s t f = Some s' -> I_fifo s'.
Proof.
  intros Hmx Hcr Hfr Hnb Hbd Hf H. apply step_Step in H.
  pose proof (fun w u => others_keep (holds_pre u) _ _ _ eq_refl eq_refl Hcr H w) as Ho.
  destruct H as [w l h cl s1 Ew HS | c l p jc s1 Ec HS].
  - assert (Hh : forall w' u, holds_pre u (ws s1 w') = true -> holds_pre u (ws s w') = true \/ q s = ITask u :: q s1).
    { intros w' u Hu. destruct (Nat.eq_dec w' w) as [->|Hne]; [rewrite Ew; exact (WStep_holds_pre HS Hu)|].
      left. apply (Ho w' u); [congruence | exact Hu]. }
    destruct HS.
    (* every rule but WBegin leaves the log alone, and the queue, or takes its head *)
    all: try solve [apply (fifo_frame s); [eauto | reflexivity | reflexivity | exact Hh | exact Hf]].
    (* WBegin: the only worker begins the body of the only task taken *)
    subst h. destruct Hf as [F1 F2 F3 F4 F5 F6].
    assert (Hme : holds_pre t (ws s w) = true) by (rewrite Ew; apply Nat.eqb_refl).
    assert (Hnone : forall w' u, holds_pre u (upd (ws s) w (mkW WBody (Some (ITask t)) cl) w') = true -> False).
    { intros w' u Hu. destruct (Nat.eq_dec w' w) as [->|Hne]; [rewrite upd_same in Hu; discriminate Hu|].
      apply Hne, (single_holder s w w' t u Hmx Hcr Hnb Hbd Hme), (Ho w' u); [congruence | exact Hu]. }
    constructor; simp.
    + exact F1.
    + intros w' u Hu. destruct (Hnone _ _ Hu).
    + intros m [<-|Hm]; [exact (F2 _ _ Hme) | exact (F3 _ Hm)].
    + intros m w' u _ Hu. destruct (Hnone _ _ Hu).
    + intros m Hm. destruct (Nat.eq_dec m t) as [->|Hne]; [rewrite upd_same; lia | rewrite upd_other by exact Hne].
      destruct Hm as [E|Hm]; [congruence | exact (F5 m Hm)].
    + split; [|exact F6]. intros m' Hm'. exact (F4 _ _ _ Hm' Hme).
  - assert (Ho' : forall w' u, holds_pre u (ws s1 w') = true -> holds_pre u (ws s w') = true)
      by (intros w' u; apply Ho; discriminate).
    destruct HS.
    all: try solve [apply (fifo_frame s); [eauto | reflexivity | reflexivity | | exact Hf];
                    intros w' u Hu; left; exact (Ho' w' u Hu)].
    + (* CEPut: the new task gets the next number, which nothing queued, taken or begun has *)
      apply (fifo_put s _ (ITask (next_task s))); [reflexivity | reflexivity | reflexivity | exact Ho' | | exact Hf].
      intros t E. injection E as <-. repeat split.
      * intros u Hu. destruct (le_lt_dec (next_task s) u) as [Hle|Hlt]; [|exact Hlt]. destruct (Hfr u Hle) as (Fa & _). lia.
      * intros w' u Hu. exact (held_lt s w' u Hcr Hfr Hu).
      * intros m Hm. destruct (le_lt_dec (next_task s) m) as [Hle|Hlt]; [|exact Hlt]. destruct (Hfr m Hle) as (_ & _ & Fc). lia.
    + (* stop() puts a sentinel *)
      apply (fifo_put s _ ISent); [reflexivity | reflexivity | reflexivity | exact Ho' | discriminate | exact Hf].
Qed.

Lemma fifo_init mx mn progs : I_fifo (init mx mn progs).
Proof. constructor; cbn; try exact I; try (intros; contradiction); intros w t H; discriminate H. Qed.

(** task t occurs in the log as many times as its body began (at most once, by C09_at_most_once) *)
Definition I_logcount (s : st) : Prop := forall t, count_occ Nat.eq_dec (start_log s) t = tstarts s t.

Lemma P_logcount s t f s' : I_logcount s -> step s t f = Some s' -> I_logcount s'.
Proof.
  intros Hl H u. specialize (Hl u). apply step_Step in H. destruct H as [w l h cl s1 Ew HS | c l p jc s1 Ec HS].
  - destruct HS; simp; try exact Hl.
    (* WBegin: the task goes on the log and its counter goes up *)
    cbn [count_occ]. destruct (Nat.eq_dec t u) as [->|Hne]; [rewrite upd_same; lia | rewrite upd_other by congruence; exact Hl].
  - destruct (CStep_frame HS) as (-> & _ & -> & _). exact Hl.
Qed.
