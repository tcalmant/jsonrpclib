(** * EndToEndProofs — C01: a proxy call is transparent (for all registered functions, names,
    JSON arguments that bind, versions and class-translation settings).

    One exchange is a composition of stages, each with its lemma about arbitrary entries and replies:
    the client writes the request ([dump_entry], from the closed forms of Payload.dump of C14), the text
    crosses the wire ([wire_dumpable]), the dispatcher answers a well-formed entry ([answer_registered],
    from the equations of DispatchProofs), the client reads the reply ([run_request_one],
    [proxy_result_resp]).  The concrete request shapes enter through one lemma each saying that they
    are well-formed entries with the expected method, parameters and id. *)
From Coq Require Import Lia.
From JR Require Import Payload PayloadProofs Client Dispatch DispatchProofs EndToEnd.
Open Scope string_scope.

Lemma dumpable_ind' (P : val -> Prop) :
  P VNone -> (forall b, P (VBool b)) -> (forall z, P (VInt z)) -> (forall f, P (VFlt f)) -> (forall s, P (VStr s)) ->
  (forall l, Forall P l -> P (VList l)) -> (forall l, Forall P l -> P (VTuple l)) ->
  (forall m, Forall (fun kv => P (snd kv)) m -> P (VDict m)) ->
  forall v, dumpable v = true -> P v.
Proof.
  intros HN HB HI HF HS HL HT HD. induction v using val_ind_in; intros Hd; cbn in Hd; try discriminate Hd; auto.
  - apply HL, Forall_forall. intros x Hx. exact (H x Hx (forallb_In Hd Hx)).
  - apply HT, Forall_forall. intros x Hx. exact (H x Hx (forallb_In Hd Hx)).
  - apply HD, Forall_forall. intros [k x] Hx. pose proof (forallb_In Hd Hx) as Hk. cbn [fst snd] in *.
    destruct k; try discriminate Hk. exact (proj2 (H _ x Hx) Hk).
Qed.

Lemma norm_idem : forall v, norm (norm v) = norm v.
Proof.
  induction v using val_ind_in; cbn [norm]; auto.
  1-4: f_equal; rewrite map_map; apply map_ext_in; intros x Hx; auto.
  f_equal. rewrite map_map. apply map_ext_in. intros [k x] Hkv. cbn [fst snd]. f_equal. exact (proj2 (H k x Hkv)).
Qed.

Lemma is_json_norm : forall v, dumpable v = true -> is_json (norm v) = true.
Proof.
  induction v using val_ind_in; cbn [norm dumpable is_json]; auto; intros Hd; try discriminate Hd.
  1-2: rewrite forallb_map; revert Hd; apply forallb_impl; auto.
  rewrite forallb_map. revert Hd. apply forallb_impl. intros [k x] Hx Hk. cbn [fst snd] in *.
  destruct k; try discriminate Hk. exact (proj2 (H _ x Hx) Hk).
Qed.

Lemma is_json_dumpable : forall v, is_json v = true -> dumpable v = true.
Proof.
  induction v using val_ind_in; cbn [dumpable is_json]; auto; intros Hd; try discriminate Hd.
  - revert Hd. apply forallb_impl. auto.
  - revert Hd. apply forallb_impl. intros [k x] Hx Hk. cbn [fst snd] in *.
    destruct k; try discriminate Hk. exact (proj2 (H _ x Hx) Hk).
Qed.

Lemma dumpable_norm v : dumpable v = true -> dumpable (norm v) = true.
Proof. intros H. now apply is_json_dumpable, is_json_norm. Qed.

Lemma norm_json : forall v, is_json v = true -> norm v = v.
Proof.
  induction v using val_ind_in; cbn [norm is_json]; auto; intros Hd; try discriminate Hd.
  - f_equal. rewrite <- (map_id l) at 2. apply map_ext_in. intros x Hx. exact (H x Hx (forallb_In Hd Hx)).
  - f_equal. rewrite <- (map_id m) at 2. apply map_ext_in. intros [k x] Hx. pose proof (forallb_In Hd Hx) as Hk.
    cbn [fst snd] in *. destruct k; try discriminate Hk. now rewrite (proj2 (H _ x Hx) Hk).
Qed.

Lemma convert_list l :
  Forall (fun v => convert v = Ok (norm v)) l ->
  (fix go (l : list val) : res (list val) :=
     match l with [] => Ok [] | x :: r => do x' <- convert x; do r' <- go r; Ok (x' :: r') end) l
  = Ok (map norm l).
Proof. induction 1 as [|x l Hx _ IH]; [reflexivity|]. now rewrite Hx, IH. Qed.

Lemma convert_dict m :
  Forall (fun kv => convert (snd kv) = Ok (norm (snd kv))) m ->
  (fix go (m : list (val * val)) : res (list (val * val)) :=
     match m with [] => Ok [] | kv :: r => do x' <- convert (snd kv); do r' <- go r; Ok ((fst kv, x') :: r') end) m
  = Ok (map (fun kv => (fst kv, norm (snd kv))) m).
Proof. induction 1 as [|kv r Hx _ IH]; [reflexivity|]. now rewrite Hx, IH. Qed.

Lemma convert_dumpable : forall v, dumpable v = true -> convert v = Ok (norm v).
Proof.
  apply dumpable_ind'; try reflexivity.
  - intros l H. cbn [convert norm]. now rewrite convert_list.
  - intros l H. cbn [convert norm]. now rewrite convert_list.
  - intros m H. cbn [convert norm]. now rewrite convert_dict.
Qed.

Lemma norm_dict_cons : forall k v m, norm (VDict ((k, v) :: m)) =
  match norm (VDict m) with VDict m' => VDict ((k, norm v) :: m') | x => x end.
Proof. reflexivity. Qed.

Lemma truthy_norm v : truthy (norm v) = truthy v.
Proof. destruct v as [| | | | |l|l|l|l|l| | | |]; try reflexivity; now destruct l. Qed.

(** class translation changes JSON-dumpable data at most by turning tuples into lists, as the wire does anyway *)
Lemma conv_dumpable (b : bool) v : dumpable v = true ->
  let w := if b then norm v else v in
  conv b v = Ok w /\ dumpable w = true /\ norm w = norm v /\ truthy w = truthy v.
Proof.
  intros H. destruct b; cbn [conv]; [|auto]. rewrite norm_idem, truthy_norm. auto using convert_dumpable, dumpable_norm.
Qed.

Definition f10 : val := VFlt (F 1 1).
Definition f20 : val := VFlt (F 2 1).
Definition ver_ok (v : val) : Prop := v = f10 \/ v = f20.
Definition carg_ok (v : val) : Prop := v = VNone \/ ver_ok v.

Definition args_json (a : call_args) : bool :=
  match a with Positional l => forallb is_json l | Keyword m => is_json (VDict m) end.

(** what the dispatcher hands to the callable: f( *l ), f( **m ), f() *)
Definition entered (a : call_args) : val :=
  match a with
  | Positional [] | Keyword [] => VList []
  | Positional l => VList l
  | Keyword m => VDict m
  end.

(** the version the request is written in: the proxy's version argument, else its Config's version *)
Definition req_v2 (c : client) : bool :=
  match cl_version c with
  | VNone => match pc_version (cl_cfg c) with VFlt (F 2 1) => true | _ => false end
  | VFlt (F 2 1) => true
  | _ => false
  end.

(** the request object as the server parses it *)
Definition request_value (v2 : bool) (m : str) (a : call_args) (id : str) : val :=
  let base := [(VStr "id", VStr id); (VStr "method", VStr m)] in
  VDict (match a, v2 with
         | (Positional [] | Keyword []), false => base ++ [(VStr "params", VList [])]
         | (Positional [] | Keyword []), true => base ++ [(VStr "jsonrpc", VStr "2.0")]
         | _, false => base ++ [(VStr "params", entered a)]
         | _, true => base ++ [(VStr "params", entered a); (VStr "jsonrpc", VStr "2.0")]
         end).

(** the form of the reply: a request without "jsonrpc" is answered in 1.0 form, one with it in the server's
    (this name hides Dispatch.reply_form, which reads the form off a reply object, in every file that
    imports this one after Dispatch) *)
Definition reply_form (v2 : bool) (srvf : form) : form := if v2 then srvf else V1.

(** the request dictionary in general form: [with_params] says whether it has a "params" member.
    [p] is that member as the client wrote it, or, after the wire, as the server parses it *)
Definition req_dict (v2 with_params : bool) (m : str) (p : val) (id : str) : val :=
  VDict ([(VStr "id", VStr id); (VStr "method", VStr m)]
         ++ (if with_params then [(VStr "params", p)] else [])
         ++ (if v2 then [(VStr "jsonrpc", VStr "2.0")] else [])).

(** the notification object as the server parses it: no "id" member under 2.0, "id": null under 1.0 *)
Definition notify_value (v2 : bool) (m : str) (a : call_args) : val :=
  VDict (match a, v2 with
         | (Positional [] | Keyword []), false => [(VStr "id", VNone); (VStr "method", VStr m); (VStr "params", VList [])]
         | (Positional [] | Keyword []), true => [(VStr "method", VStr m); (VStr "jsonrpc", VStr "2.0")]
         | _, false => [(VStr "id", VNone); (VStr "method", VStr m); (VStr "params", entered a)]
         | _, true => [(VStr "method", VStr m); (VStr "params", entered a); (VStr "jsonrpc", VStr "2.0")]
         end).

Definition notif_dict (v2 wp : bool) (m : str) (p : val) : val :=
  VDict ((if v2 then [] else [(VStr "id", VNone)]) ++ [(VStr "method", VStr m)]
         ++ (if wp then [(VStr "params", p)] else [])
         ++ (if v2 then [(VStr "jsonrpc", VStr "2.0")] else [])).

Definition notify_event (pool : bool) (srvf : form) (m : str) (f : cid) (a : call_args) : event :=
  if pool then EvEnqueue None m (entered a) (Some srvf) else EvCall f (entered a).

Lemma request_value_req_dict v2 m a id :
  request_value v2 m a id = req_dict v2 (truthy (entered a) || negb v2) m (entered a) id.
Proof. now destruct a as [[|x l]|[|kv mm]], v2. Qed.

Lemma notify_value_notif_dict v2 m a :
  notify_value v2 m a = notif_dict v2 (truthy (entered a) || negb v2) m (entered a).
Proof. now destruct a as [[|x l]|[|kv mm]], v2. Qed.

Lemma entered_container a : is_param_container (entered a) = true.
Proof. now destruct a as [[|x l]|[|kv mm]]. Qed.

Lemma entered_or_empty a v2 :
  (if truthy (entered a) || negb v2 then entered a else VList []) = entered a.
Proof. now destruct a as [[|x l]|[|kv mm]], v2. Qed.

Lemma req_dict_dumpable v2 wp m p id : dumpable p = true -> dumpable (req_dict v2 wp m p id) = true.
Proof. intros H. destruct wp, v2; cbn; now rewrite ?H. Qed.

Lemma norm_req_dict v2 wp m p id : norm (req_dict v2 wp m p id) = req_dict v2 wp m (norm p) id.
Proof. now destruct wp, v2. Qed.

Lemma req_dict_entry v2 wp m p id srvf :
  m <> "" -> id <> "" -> is_param_container p = true ->
  exists mm, req_dict v2 wp m p id = VDict mm /\ truthy (VDict mm) = true
    /\ wellformed_entry (VDict mm) = true /\ method_of (VDict mm) = Some m /\ no_id (VDict mm) = false
    /\ params_of (VDict mm) = (if wp then p else VList []) /\ usable_id (VDict mm) = VStr id
    /\ request_form srvf mm = reply_form v2 srvf.
Proof.
  intros Hm Hi Hp. apply String.eqb_neq in Hm, Hi. unfold is_param_container in Hp.
  eexists. split; [reflexivity|].
  destruct wp, v2; cbn; rewrite ?Hm, ?Hi, ?Hp; repeat split; try discriminate; now destruct srvf.
Qed.

Lemma notif_dict_dumpable v2 wp m p : dumpable p = true -> dumpable (notif_dict v2 wp m p) = true.
Proof. intros H. destruct wp, v2; cbn; now rewrite ?H. Qed.

Lemma norm_notif_dict v2 wp m p : norm (notif_dict v2 wp m p) = notif_dict v2 wp m (norm p).
Proof. now destruct wp, v2. Qed.

Lemma notif_dict_entry v2 wp m p srvf :
  m <> "" -> is_param_container p = true ->
  exists mm, notif_dict v2 wp m p = VDict mm /\ truthy (VDict mm) = true
    /\ is_notification_entry (VDict mm) = true /\ method_of (VDict mm) = Some m
    /\ params_of (VDict mm) = (if wp then p else VList [])
    /\ request_form srvf mm = reply_form v2 srvf.
Proof.
  intros Hm Hp. apply String.eqb_neq in Hm. unfold is_param_container in Hp.
  eexists. split; [reflexivity|]. unfold is_notification_entry.
  destruct wp, v2; cbn; rewrite ?Hm, ?Hp; repeat split; try discriminate; now destruct srvf.
Qed.

Lemma wire_dumpable d : dumpable d = true -> wire d = Ok (norm d).
Proof. unfold wire. now intros ->. Qed.

Lemma load_jl cfg x : Payload.load jl cfg x = Ok x.
Proof. unfold load, jl. destruct x; try reflexivity; now destruct (pc_jsonclass cfg). Qed.

Lemma norm_resp_obj f i r : norm (resp_obj f i r) = resp_obj f (norm i) (norm r).
Proof. now destruct f. Qed.

Lemma proxy_result_resp f i r : proxy_result (resp_obj f i r) = Ok r.
Proof. now destruct f. Qed.

Section Exchange.
  Variable body : cid -> val -> outcome.
  Variable sigs : cid -> signature.

  Lemma run_request_one srvf srv dm c w h o log :
    marshaled_dispatch body sigs srvf srv dm (PValue w) = Ok (ROne o, log) ->
    run_request body sigs srvf srv dm c w h
    = (Ok (norm o), log, add_response (add_request h w) (Some (norm o))).
  Proof. intros E. unfold run_request. rewrite E. cbn [reply_value]. now rewrite load_jl. Qed.

  Lemma run_request_empty srvf srv dm c w h log :
    marshaled_dispatch body sigs srvf srv dm (PValue w) = Ok (REmpty, log) ->
    run_request body sigs srvf srv dm c w h = (Ok VNone, log, add_response (add_request h w) None).
  Proof. intros E. unfold run_request. now rewrite E. Qed.

  Lemma answer_registered srvf reg pool sjc m s f v :
    wellformed_entry (VDict m) = true -> method_of (VDict m) = Some s -> no_id (VDict m) = false ->
    lookup s (r_funcs reg) = Some f ->
    call_binds (sigs f) (params_of (VDict m)) = true -> body f (params_of (VDict m)) = Return v ->
    dumpable v = true ->
    answer_entry body sigs srvf (mkSrv reg pool sjc) None (VDict m)
    = (Some (resp_obj (request_form srvf m) (usable_id (VDict m)) (if sjc then norm v else v)),
       [EvCall f (params_of (VDict m))]).
  Proof.
    intros Hw Hm Hn Hf Hb Hr Hv. rewrite (answer_call _ _ _ _ _ _ s) by assumption.
    cbn [run_target sv_reg sv_jsonclass]. rewrite (dispatch_func _ _ _ Hf), call_func_eq, Hb, Hr.
    cbn [fst snd reply_of]. now rewrite (proj1 (conv_dumpable sjc v Hv)).
  Qed.

  Lemma answer_registered_notification srvf reg pool sjc m s f :
    is_notification_entry (VDict m) = true -> method_of (VDict m) = Some s ->
    lookup s (r_funcs reg) = Some f -> call_binds (sigs f) (params_of (VDict m)) = true ->
    answer_entry body sigs srvf (mkSrv reg pool sjc) None (VDict m)
    = (None, if pool then [EvEnqueue None s (params_of (VDict m)) (Some (request_form srvf m))]
             else [EvCall f (params_of (VDict m))]).
  Proof.
    intros Hn Hm Hf Hb. rewrite (answer_notification _ _ _ _ _ _ s) by assumption.
    cbn [run_target sv_reg sv_pool]. destruct pool; [reflexivity|].
    now rewrite (dispatch_func _ _ _ Hf), call_func_eq, Hb.
  Qed.

  Lemma call_exchange srvf reg pool sjc c m s f v h :
    truthy (VDict m) = true ->
    wellformed_entry (VDict m) = true -> method_of (VDict m) = Some s -> no_id (VDict m) = false ->
    lookup s (r_funcs reg) = Some f ->
    call_binds (sigs f) (params_of (VDict m)) = true -> body f (params_of (VDict m)) = Return v ->
    dumpable v = true ->
    let o := resp_obj (request_form srvf m) (norm (usable_id (VDict m))) (norm v) in
    run_request body sigs srvf (mkSrv reg pool sjc) None c (VDict m) h
    = (Ok o, [EvCall f (params_of (VDict m))], add_response (add_request h (VDict m)) (Some o)).
  Proof.
    intros Ht Hw Hm Hn Hf Hb Hr Hv o.
    pose proof (answer_registered srvf reg pool sjc m s f v Hw Hm Hn Hf Hb Hr Hv) as A.
    destruct (conv_dumpable sjc v Hv) as (_ & Hd & Hnv & _).
    erewrite run_request_one.
    2:{ rewrite (marshaled_single _ _ _ _ _ _ Ht eq_refl), A. cbn [marshal_one].
        now rewrite dumpable_resp_obj by auto using usable_id_dumpable. }
    now rewrite norm_resp_obj, Hnv.
  Qed.

  Lemma notify_exchange srvf reg pool sjc c m s f h :
    truthy (VDict m) = true ->
    is_notification_entry (VDict m) = true -> method_of (VDict m) = Some s ->
    lookup s (r_funcs reg) = Some f -> call_binds (sigs f) (params_of (VDict m)) = true ->
    run_request body sigs srvf (mkSrv reg pool sjc) None c (VDict m) h
    = (Ok VNone, (if pool then [EvEnqueue None s (params_of (VDict m)) (Some (request_form srvf m))]
                  else [EvCall f (params_of (VDict m))]),
       add_response (add_request h (VDict m)) None).
  Proof.
    intros Ht Hn Hm Hf Hb.
    pose proof (answer_registered_notification srvf reg pool sjc m s f Hn Hm Hf Hb) as A.
    apply run_request_empty. now rewrite (marshaled_single _ _ _ _ _ _ Ht eq_refl), A.
  Qed.

  (** the server's answer to one 2.0 entry of a MultiCall batch *)
  Lemma server_call : forall srvf reg pool sjc m f a id v,
    m <> "" -> id <> "" -> lookup m (r_funcs reg) = Some f ->
    call_binds (sigs f) (entered a) = true -> body f (entered a) = Return v -> dumpable v = true ->
    answer_entry body sigs srvf (mkSrv reg pool sjc) None (request_value true m a id)
    = (Some (resp_obj srvf (VStr id) (if sjc then norm v else v)), [EvCall f (entered a)]).
  Proof.
    intros srvf reg pool sjc m f a id v Hm Hid Hf Hb Hbody Hv. rewrite request_value_req_dict.
    destruct (req_dict_entry true (truthy (entered a) || negb true) m (entered a) id srvf Hm Hid (entered_container a))
      as (mm & -> & _ & Hw & Hmeth & Hno & Hpar & Hu & Hform).
    rewrite entered_or_empty in Hpar. rewrite <- Hpar in *.
    now rewrite (answer_registered srvf reg pool sjc mm m f v), Hu, Hform.
  Qed.

  Lemma server_notify : forall srvf reg pool sjc m f a,
    m <> "" -> lookup m (r_funcs reg) = Some f ->
    call_binds (sigs f) (entered a) = true ->
    answer_entry body sigs srvf (mkSrv reg pool sjc) None (notify_value true m a)
    = (None, [notify_event pool srvf m f a]).
  Proof.
    intros srvf reg pool sjc m f a Hm Hf Hb. rewrite notify_value_notif_dict.
    destruct (notif_dict_entry true (truthy (entered a) || negb true) m (entered a) srvf Hm (entered_container a))
      as (mm & -> & _ & Hn & Hmeth & Hpar & Hform).
    rewrite entered_or_empty in Hpar. rewrite <- Hpar in *.
    rewrite (answer_registered_notification srvf reg pool sjc mm m f), Hform by assumption.
    unfold notify_event. rewrite Hpar. now destruct pool.
  Qed.
End Exchange.

Definition rat_of_v2 (v2 : bool) : rat := if v2 then (2, 1%positive) else (1, 1%positive).

(** the value a call puts in "params" ([call_params], or [job_params] in a MultiCall) is JSON data that
    the callable receives as [entered a] *)
Lemma params_json a pv :
  pv = call_params a \/ pv = job_params a -> args_json a = true ->
  dumpable pv = true /\ valid_params false (PVal pv) = true /\ truthy pv = truthy (entered a)
  /\ (if truthy pv then norm pv else VList []) = entered a.
Proof.
  intros Hpv Ha.
  (* [entered a] is JSON, so it is dumpable and [norm] leaves it alone; [pv] differs from it at most by being
     a tuple, or by being an empty container of the other kind *)
  assert (J : is_json (entered a) = true) by now destruct a as [[|x l]|[|kv mm]].
  pose proof (is_json_dumpable _ J) as Hd. pose proof (norm_json _ J) as Hn.
  destruct a as [[|x l]|[|kv mm]], Hpv as [-> | ->]; repeat split; assumption.
Qed.

Lemma resolved_version_client dv c :
  ver_ok (pc_version (cl_cfg c)) -> carg_ok (cl_version c) ->
  resolved_version dv (cl_cfg c) (cl_version c) = Ok (rat_of_v2 (req_v2 c)).
Proof. destruct c as [[cv cjc] carg]. cbn. now intros [-> | ->] [-> | [-> | ->]]. Qed.

Section Writes.
  Variable fresh : nat -> str.
  Variable dv : val.

  Lemma dump_entry cfg version pv m (notify : bool) n v2 :
    resolved_version dv cfg version = Ok (rat_of_v2 v2) ->
    valid_params false (PVal pv) = true -> dumpable pv = true ->
    exists P0, dumpable P0 = true /\ norm P0 = (if truthy pv then norm pv else VList []) /\
    Payload.dump jc fresh dv cfg (PVal pv) (VStr m) VNone version VNone (if notify then VBool true else VNone) n
    = Ok ((if notify then notif_dict v2 (truthy pv || negb v2) m P0
           else req_dict v2 (truthy pv || negb v2) m P0 (fresh n)), S n).
  Proof.
    intros Hver Hvp Hd.
    assert (Hdp : default_params VNone pv = pv) by (destruct pv; reflexivity || discriminate Hvp).
    (* what jsonclass.dump makes of the parameters differs from them at most by tuples, which the wire
       turns into lists anyway *)
    destruct (conv_dumpable (pc_jsonclass cfg) pv Hd) as (Htr & Hd' & Hn' & Ht').
    set (p' := if pc_jsonclass cfg then norm pv else pv) in *.
    rewrite <- Hdp in Hvp, Htr.
    assert (Htx : version_text (rat_of_v2 v2) "2.0") by (destruct v2; intros G; [reflexivity|discriminate G]).
    exists (params_or_empty p'). unfold params_or_empty. rewrite Ht'.
    split; [destruct (truthy pv); [exact Hd'|reflexivity]|].
    split; [destruct (truthy pv); [exact Hn'|reflexivity]|].
    rewrite (dump_pval_spec fresh jc dv cfg pv (VStr m) VNone version VNone (if notify then VBool true else VNone)
               n (rat_of_v2 v2) "2.0" p') by (try apply valid_request; assumption || reflexivity).
    unfold message, id_used, notify_members, request_members, params_member, jsonrpc_member, notif_dict, req_dict,
      params_or_empty. rewrite Ht'.
    now destruct notify, v2, (truthy pv).
  Qed.

  (** MultiCallMethod.request(): always written in 2.0 form, whatever the configurations say *)
  Lemma job_request_value : forall mcfg m a notify n,
    args_json a = true ->
    job_request fresh dv mcfg (mkJob m a notify) n
    = Ok ((if notify then notify_value true m a else request_value true m a (fresh n)), S n).
  Proof.
    intros mcfg m a notify n Ha. destruct (params_json a _ (or_intror eq_refl) Ha) as (Hd & Hvp & Ht & Hn).
    destruct (dump_entry mcfg two_point_zero (job_params a) m notify n true eq_refl Hvp Hd)
      as (P0 & HP0 & HPn & E).
    unfold job_request. cbn [j_args j_method j_notify]. rewrite E. cbn [bind].
    rewrite Hn in HPn. rewrite Ht in *.
    rewrite notify_value_notif_dict, request_value_req_dict.
    destruct notify; rewrite wire_dumpable by now (apply notif_dict_dumpable || apply req_dict_dumpable).
    - now rewrite norm_notif_dict, HPn.
    - now rewrite norm_req_dict, HPn.
  Qed.
End Writes.

Section Single.
  Variable body : cid -> val -> outcome.
  Variable sigs : cid -> signature.
  Variable fresh : nat -> str.
  Variable dv : val.
  Hypothesis fresh_nonempty : forall n, fresh n <> "".

  (** from the request dictionary on: the wire, the server, the reply, the client's reading of it.
      [v2]: the request is written in 2.0 form; [wp]: it has a "params" member;
      [P0]: that member as the client wrote it; [P]: as the server parses it.
      The hypothesis [wp = false -> v2 = true] is not used by the proof. *)
  Lemma core : forall (v2 wp : bool) srvf reg pool sjc c m f n h v (P0 P : val),
    m <> "" -> lookup m (r_funcs reg) = Some f ->
    dumpable P0 = true -> norm P0 = P -> is_param_container P = true ->
    (wp = false -> v2 = true) ->
    call_binds (sigs f) (if wp then P else VList []) = true ->
    body f (if wp then P else VList []) = Return v -> dumpable v = true ->
    match wire (req_dict v2 wp m P0 (fresh n)) with
    | Ok w =>
        let '(r, log, h') := run_request body sigs srvf (mkSrv reg pool sjc) None c w h in
        (match r with Ok resp => proxy_result resp | Raise e => Raise e end, log, h', S n)
    | Raise e => (Raise e, [], h, S n)
    end
    = (Ok (norm v), [EvCall f (if wp then P else VList [])],
       add_response (add_request h (req_dict v2 wp m P (fresh n)))
                    (Some (resp_obj (reply_form v2 srvf) (VStr (fresh n)) (norm v))),
       S n).
  Proof.
    intros v2 wp srvf reg pool sjc c m f n h v P0 P Hm Hf HP0 HPn HPc _ Hb Hbody Hv.
    rewrite wire_dumpable, norm_req_dict, HPn by now apply req_dict_dumpable.
    destruct (req_dict_entry v2 wp m P (fresh n) srvf Hm (fresh_nonempty n) HPc)
      as (mm & -> & Hne & Hw & Hmeth & Hid & Hpar & Hu & Hform).
    rewrite <- Hpar in *.
    rewrite (call_exchange body sigs srvf reg pool sjc c mm m f v h) by assumption.
    now rewrite proxy_result_resp, Hu, Hform.
  Qed.

  Lemma core_notify : forall (v2 wp : bool) srvf reg pool sjc c m f (n : nat) h (P0 P : val),
    m <> "" -> lookup m (r_funcs reg) = Some f ->
    dumpable P0 = true -> norm P0 = P -> is_param_container P = true ->
    call_binds (sigs f) (if wp then P else VList []) = true ->
    match wire (notif_dict v2 wp m P0) with
    | Ok w =>
        let '(r, log, h') := run_request body sigs srvf (mkSrv reg pool sjc) None c w h in
        (match r with Ok resp => (do _ <- check_for_errors resp; Ok VNone) | Raise e => Raise e end, log, h', S n)
    | Raise e => (Raise e, [], h, S n)
    end
    = (Ok VNone,
       (if pool then [EvEnqueue None m (if wp then P else VList []) (Some (reply_form v2 srvf))]
        else [EvCall f (if wp then P else VList [])]),
       add_response (add_request h (notif_dict v2 wp m P)) None,
       S n).
  Proof.
    intros v2 wp srvf reg pool sjc c m f n h P0 P Hm Hf HP0 HPn HPc Hb.
    rewrite wire_dumpable, norm_notif_dict, HPn by now apply notif_dict_dumpable.
    destruct (notif_dict_entry v2 wp m P srvf Hm HPc) as (mm & -> & Hne & Hn & Hmeth & Hpar & Hform).
    rewrite <- Hpar in *.
    rewrite (notify_exchange body sigs srvf reg pool sjc c mm m f h) by assumption.
    now rewrite Hform.
  Qed.

  Theorem single_call : forall srvf reg pool sjc c m f a n h v,
    ver_ok (pc_version (cl_cfg c)) -> carg_ok (cl_version c) ->
    m <> "" -> lookup m (r_funcs reg) = Some f ->
    args_json a = true ->
    call_binds (sigs f) (entered a) = true ->
    body f (entered a) = Return v -> dumpable v = true ->
    proxy_call body sigs fresh dv srvf (mkSrv reg pool sjc) None c m a n h
    = (Ok (norm v), [EvCall f (entered a)],
       add_response (add_request h (request_value (req_v2 c) m a (fresh n)))
                    (Some (resp_obj (reply_form (req_v2 c) srvf) (VStr (fresh n)) (norm v))),
       S n).
  Proof.
    intros srvf reg pool sjc c m f a n h v Hcv Hca Hm Hf Ha Hb Hbody Hv.
    destruct (params_json a _ (or_introl eq_refl) Ha) as (Hd & Hvp & Ht & Hn).
    destruct (dump_entry fresh dv (cl_cfg c) (cl_version c) (call_params a) m false n (req_v2 c)
                         (resolved_version_client dv c Hcv Hca) Hvp Hd) as (P0 & HP0 & HPn & E).
    unfold proxy_call, proxy_request. rewrite E, request_value_req_dict. rewrite Hn in HPn. rewrite Ht in *.
    assert (Hwp : truthy (entered a) || negb (req_v2 c) = false -> req_v2 c = true)
      by now destruct (req_v2 c), (truthy (entered a)).
    pose proof (core (req_v2 c) (truthy (entered a) || negb (req_v2 c)) srvf reg pool sjc c m f n h v P0 (entered a))
      as C.
    (* what core hands to the callable, [if wp then entered a else VList []], is [entered a] *)
    rewrite entered_or_empty in C.
    exact (C Hm Hf                  (* the name is not empty and is registered *)
             HP0 HPn                (* the "params" member is JSON data that parses to [entered a], *)
             (entered_container a)  (* which is a list or a dict *)
             Hwp                    (* a premise that core's proof does not use *)
             Hb Hbody Hv).          (* the callable binds, returns v, and v is JSON up to tuples *)
  Qed.
End Single.

Record call_spec := mkCS { cs_m : str; cs_a : call_args; cs_f : cid; cs_v : val }.

Section Sequence.
  Variable body : cid -> val -> outcome.
  Variable sigs : cid -> signature.
  Variable fresh : nat -> str.
  Variable dv : val.
  Hypothesis fresh_nonempty : forall n, fresh n <> "".
  Variable srvf : form.
  Variable srv : server.
  Variable c : client.

  (** a call the theorems speak of *)
  Definition good (s : call_spec) : Prop :=
    cs_m s <> "" /\ lookup (cs_m s) (r_funcs (sv_reg srv)) = Some (cs_f s) /\ args_json (cs_a s) = true /\
    call_binds (sigs (cs_f s)) (entered (cs_a s)) = true /\
    body (cs_f s) (entered (cs_a s)) = Return (cs_v s) /\ dumpable (cs_v s) = true.

  Fixpoint run_calls (cs : list call_spec) (n : nat) (h : history) : list (res val) * list event * history * nat :=
    match cs with
    | [] => ([], [], h, n)
    | s :: r =>
        let '(x, l, h1, n1) := proxy_call body sigs fresh dv srvf srv None c (cs_m s) (cs_a s) n h in
        let '(xs, ls, h2, n2) := run_calls r n1 h1 in
        (x :: xs, (l ++ ls)%list, h2, n2)
    end.

  Fixpoint expected_history (cs : list call_spec) (n : nat) (h : history) : history :=
    match cs with
    | [] => h
    | s :: r =>
        expected_history r (S n)
          (add_response (add_request h (request_value (req_v2 c) (cs_m s) (cs_a s) (fresh n)))
                        (Some (resp_obj (reply_form (req_v2 c) srvf) (VStr (fresh n)) (norm (cs_v s)))))
    end.

  Theorem call_sequence : forall cs n h,
    ver_ok (pc_version (cl_cfg c)) -> carg_ok (cl_version c) ->
    Forall good cs ->
    run_calls cs n h
    = (map (fun s => Ok (norm (cs_v s))) cs,
       map (fun s => EvCall (cs_f s) (entered (cs_a s))) cs,
       expected_history cs n h,
       (n + length cs)%nat).
  Proof.
    intros cs n h Hv Ha Hg. revert n h. induction Hg as [|s r (H1 & H2 & H3 & H4 & H5 & H6) Hr IH]; intros n h.
    - cbn. rewrite Nat.add_0_r. reflexivity.
    - cbn [run_calls]. destruct srv as [reg pool sjc]. cbn [sv_reg] in *.
      rewrite (single_call body sigs fresh dv fresh_nonempty srvf reg pool sjc c (cs_m s) (cs_f s) (cs_a s) n h (cs_v s)); auto.
      rewrite IH. cbn [map app length expected_history]. rewrite Nat.add_succ_r. reflexivity.
  Qed.

  Lemma expected_history_lengths : forall cs n h,
    length (h_requests (expected_history cs n h)) = (length (h_requests h) + length cs)%nat /\
    length (h_responses (expected_history cs n h)) = (length (h_responses h) + length cs)%nat.
  Proof.
    induction cs as [|s r IH]; intros n h; cbn [expected_history length]; [lia|].
    edestruct IH as (A & B). rewrite A, B.
    unfold add_response, add_request. cbn [h_requests h_responses]. rewrite !app_length. cbn [length]. lia.
  Qed.
End Sequence.

Section Batch.
  Variable body : cid -> val -> outcome.
  Variable sigs : cid -> signature.
  Variable fresh : nat -> str.
  Variable dv : val.
  Hypothesis fresh_nonempty : forall n, fresh n <> "".

  Record job_spec := mkJS { js_job : job; js_f : cid; js_v : val }.

  Variable srvf : form.
  Variable reg : registry.
  Variable pool sjc : bool.

  (** the same for a job of a MultiCall; a notification's body may do anything *)
  Definition good_job (s : job_spec) : Prop :=
    let j := js_job s in
    j_method j <> "" /\ lookup (j_method j) (r_funcs reg) = Some (js_f s) /\ args_json (j_args j) = true /\
    call_binds (sigs (js_f s)) (entered (j_args j)) = true /\
    (j_notify j = false -> body (js_f s) (entered (j_args j)) = Return (js_v s) /\ dumpable (js_v s) = true).

  Fixpoint job_values (js : list job_spec) (n : nat) : list val :=
    match js with
    | [] => []
    | s :: r =>
        let j := js_job s in
        (if j_notify j then notify_value true (j_method j) (j_args j)
         else request_value true (j_method j) (j_args j) (fresh n)) :: job_values r (S n)
    end.

  Fixpoint job_responses (js : list job_spec) (n : nat) : list val :=
    match js with
    | [] => []
    | s :: r =>
        ((if j_notify (js_job s) then []
          else [resp_obj srvf (VStr (fresh n)) (if sjc then norm (js_v s) else js_v s)]) ++ job_responses r (S n))%list
    end.

  Definition job_event (s : job_spec) : event :=
    let j := js_job s in
    if j_notify j then notify_event pool srvf (j_method j) (js_f s) (j_args j) else EvCall (js_f s) (entered (j_args j)).

  Definition job_results (js : list job_spec) : list (res val) :=
    map (fun s => Ok (norm (js_v s))) (filter (fun s => negb (j_notify (js_job s))) js).

  Lemma batch_requests : forall mcfg js n, Forall good_job js ->
    jobs_requests fresh dv mcfg (map js_job js) n = Ok (job_values js n, (n + length js)%nat).
  Proof.
    intros mcfg js n Hg. revert n. induction Hg as [|s r (H1 & H2 & H3 & H4 & H5) Hr IH]; intros n.
    - cbn. rewrite Nat.add_0_r. reflexivity.
    - cbn [map jobs_requests job_values length]. destruct (js_job s) as [m a nt] eqn:Ej. cbn [j_method j_args j_notify] in *.
      rewrite job_request_value by exact H3. cbn [bind]. rewrite IH. cbn [bind]. rewrite Nat.add_succ_r. reflexivity.
  Qed.

  Lemma batch_server : forall js n, Forall good_job js ->
    batch body sigs srvf (mkSrv reg pool sjc) None (job_values js n) = (job_responses js n, map job_event js).
  Proof.
    intros js n Hg. revert n. induction Hg as [|s r (H1 & H2 & H3 & H4 & H5) Hr IH]; intros n; [reflexivity|].
    cbn [job_values batch job_responses map]. unfold job_event at 1. destruct (js_job s) as [m a nt] eqn:Ej.
    cbn [j_method j_args j_notify] in *. destruct nt.
    - rewrite (server_notify body sigs srvf reg pool sjc m (js_f s) a) by assumption. rewrite IH. reflexivity.
    - destruct (H5 eq_refl) as (Hb & Hv). rewrite (server_call body sigs srvf reg pool sjc m (js_f s) a (fresh n) (js_v s)); auto.
      rewrite IH. reflexivity.
  Qed.

  Lemma job_responses_dumpable : forall js n, Forall good_job js -> forallb dumpable (job_responses js n) = true.
  Proof.
    intros js n Hg. revert n. induction Hg as [|s r (H1 & H2 & H3 & H4 & H5) Hr IH]; intros n; [reflexivity|].
    cbn [job_responses]. rewrite forallb_app, IH, andb_true_r. destruct (j_notify (js_job s)); [reflexivity|].
    destruct (H5 eq_refl) as (_ & Hv). cbn [forallb]. rewrite andb_true_r. apply dumpable_resp_obj; [reflexivity|].
    apply (conv_dumpable sjc _ Hv).
  Qed.

  Lemma batch_client : forall js n, Forall good_job js ->
    multicall_iter (map norm (job_responses js n)) = job_results js.
  Proof.
    intros js n Hg. revert n. induction Hg as [|s r (H1 & H2 & H3 & H4 & H5) Hr IH]; intros n; [reflexivity|].
    cbn [job_responses]. unfold job_results. cbn [filter]. destruct (j_notify (js_job s)); cbn [negb app map]; [apply IH|].
    destruct (H5 eq_refl) as (_ & Hv). cbn [multicall_iter].
    rewrite norm_resp_obj, proxy_result_resp.
    fold (job_results r). rewrite IH. destruct sjc; [rewrite norm_idem|]; reflexivity.
  Qed.

  Theorem batch_call : forall c mcfg js n h,
    js <> [] -> Forall good_job js ->
    multicall body sigs fresh dv srvf (mkSrv reg pool sjc) None c mcfg (map js_job js) n h
    = (Some (Ok (job_results js)), map job_event js,
       add_response (add_request h (VList (job_values js n)))
                    (match job_responses js n with [] => None | os => Some (VList (map norm os)) end),
       (n + length js)%nat).
  Proof.
    intros c mcfg js n h Hne Hg. unfold multicall.
    destruct (map js_job js) eqn:Em; [destruct js; [contradiction|discriminate]|]. rewrite <- Em. clear Em.
    rewrite batch_requests by exact Hg.
    unfold run_request. rewrite marshaled_batch by (destruct js; [contradiction|discriminate]).
    rewrite batch_server by exact Hg. cbn [fst snd].
    rewrite (job_responses_dumpable js n Hg). pose proof (batch_client js n Hg) as Hc.
    destruct (job_responses js n) as [|o os] eqn:Er.
    - cbn. cbn in Hc. rewrite <- Hc. reflexivity.
    - cbn [reply_value]. now rewrite load_jl, Hc.
  Qed.
End Batch.
