(** What [jc_dump] and [jc_load_m] (Model/JsonClass.v) do at each kind of node, as equations over one
    traversal combinator: [mapM] for the members of a list, [mapM (on_snd f)] for the values of a dict,
    the fields of an instance and the attributes of a descriptor.  The value load returns is again
    such a traversal.  The proofs of C07, C08, C15 and C20 start from these.

    The loops of load return a triple: the value, the argument as the caller finds it afterwards, the
    events.  For [load_seq] and [load_items] one equation gives the whole triple ([load_seq_spec],
    [load_items_spec]); the value (C07), the argument (C15) and the first failure with the events before
    it (C08) are read off it.  [setattr_loop] has no such equation, whether [py_setattr] succeeds
    depending on the object accumulated so far: its value over attributes setattr accepts is
    [setattr_loop_val], its argument [setattr_loop_arg] (JsonClassProofs.v). *)
From JR Require Import JsonClass.
From Coq Require Import Lia ZifyBool.

Lemma forallb_ext_eq {A} (f g : A -> bool) l : (forall x, f x = g x) -> forallb f l = forallb g l.
Proof. intros H. induction l as [|x r IH]; [reflexivity|]. cbn [forallb]. now rewrite H, IH. Qed.

Lemma filter_true {A} (p : A -> bool) l : forallb p l = true -> filter p l = l.
Proof. induction l as [|x l IH]; [reflexivity|]. cbn. intros [-> H]%andb_true_iff. now rewrite IH. Qed.

Lemma forallb_filter {A} (p q : A -> bool) l : forallb q l = true -> forallb q (filter p l) = true.
Proof. intros H. apply forallb_forall. intros x [Hx _]%filter_In. exact (forallb_In H Hx). Qed.

Lemma forallb_keys {A} (p : str -> bool) (a b : list (str * A)) :
  map fst a = map fst b -> forallb (fun kd => p (fst kd)) a = forallb (fun kd => p (fst kd)) b.
Proof. intros H. now rewrite <- (forallb_map fst p a), <- (forallb_map fst p b), H. Qed.

Lemma flat_map_map {A B C} (f : A -> B) (g : B -> list C) l : flat_map g (map f l) = flat_map (fun x => g (f x)) l.
Proof. induction l; simpl; congruence. Qed.

Lemma flat_map_ext_in {A B} (f g : A -> list B) l : (forall x, In x l -> f x = g x) -> flat_map f l = flat_map g l.
Proof.
  intros H. induction l as [|x l IH]; [reflexivity|]. cbn [flat_map].
  rewrite (H x), IH; [reflexivity | intros y Hy; apply H; now right | now left].
Qed.

Lemma Forall2_In_l {A B} {R : A -> B -> Prop} {l l' x} : Forall2 R l l' -> In x l -> exists y, In y l' /\ R x y.
Proof.
  induction 1 as [|a b r r' Hab _ IH]; [intros []|]. intros [<-|Hin]; [exists b; cbn; auto|].
  destruct (IH Hin) as [y [Hy HR]]. exists y. cbn; auto.
Qed.

Lemma Forall2_In_r {A B} {R : A -> B -> Prop} {l l' y} : Forall2 R l l' -> In y l' -> exists x, In x l /\ R x y.
Proof.
  induction 1 as [|a b r r' Hab _ IH]; [intros []|]. intros [<-|Hin]; [exists a; cbn; auto|].
  destruct (IH Hin) as [x [Hx HR]]. exists x. cbn; auto.
Qed.

Lemma mem_str_In k l : mem_str k l = true <-> In k l.
Proof.
  unfold mem_str. split; [intros [x [Hx E]]%existsb_exists; apply String.eqb_eq in E; now subst | ].
  intros H. apply existsb_exists. exists k. split; [exact H | apply String.eqb_refl].
Qed.

Lemma bind_Ok {A B} (r : res A) (k : A -> res B) y :
  bind r k = Ok y <-> exists x, r = Ok x /\ k x = Ok y.
Proof.
  destruct r as [a|e]; cbn [bind]; split; eauto.
  - now intros [x [[= ->] H]].
  - discriminate.
  - now intros [x [[=] _]].
Qed.

Lemma mapM_cons {A B} (f : A -> res B) x l :
  mapM f (x :: l) = do y <- f x; do ys <- mapM f l; Ok (y :: ys).
Proof. reflexivity. Qed.

Lemma mapM_Ok {A B} (f : A -> res B) l ys :
  mapM f l = Ok ys <-> Forall2 (fun x y => f x = Ok y) l ys.
Proof.
  revert ys. induction l as [|x l IH]; intros ys.
  - split; [intros [= <-]; constructor | now inversion 1].
  - rewrite mapM_cons. split.
    + intros H. apply bind_Ok in H as [y [Hy H]]. apply bind_Ok in H as [ys' [Hl [= <-]]].
      constructor; [exact Hy | now apply IH].
    + inversion 1 as [|? y ? ys' Hy Hl]; subst. apply IH in Hl. now rewrite Hy, Hl.
Qed.

(** pointwise success: the form in which an induction hypothesis over the members arrives *)
Lemma mapM_map {A B} (f : A -> res B) (g : A -> B) l :
  (forall x, In x l -> f x = Ok (g x)) -> mapM f l = Ok (map g l).
Proof.
  intros H. induction l as [|x l IH]; [reflexivity|].
  rewrite mapM_cons, (H x), IH; [reflexivity | intros y Hy; apply H; now right | now left].
Qed.

Lemma mapM_id {A} (f : A -> res A) l : (forall x, In x l -> f x = Ok x) -> mapM f l = Ok l.
Proof. intros H. rewrite <- (map_id l) at 2. now apply mapM_map. Qed.

(** two traversals in a row, as after dump then load *)
Lemma mapM_chain {A B C} (f : A -> res B) (g : B -> res C) (h : A -> C) l :
  (forall x, In x l -> exists d, f x = Ok d /\ g d = Ok (h x)) ->
  exists ds, mapM f l = Ok ds /\ mapM g ds = Ok (map h l).
Proof.
  intros H. induction l as [|x l IH]; [now exists []|].
  destruct IH as [ds [Hds Hg]]; [intros y Hy; apply H; now right|].
  destruct (H x) as [d [Hd Hgd]]; [now left|]. exists (d :: ds).
  rewrite !mapM_cons, Hd, Hds, Hgd, Hg. auto.
Qed.

(** ** Traversal of the values of an association list: dict values, fields of an instance, attributes
    of a descriptor.  [on_snd f] is the function the model's [mapM_values f] maps: the two are convertible. *)

Definition on_snd {K A B} (f : A -> res B) (kx : K * A) : res (K * B) := do y <- f (snd kx); Ok (fst kx, y).

Lemma on_snd_Ok {K A B} (f : A -> res B) (kx : K * A) kd :
  on_snd f kx = Ok kd <-> fst kd = fst kx /\ f (snd kx) = Ok (snd kd).
Proof.
  unfold on_snd. destruct kd as [k d]. cbn [fst snd]. split.
  - now intros [y [Hy [= <- <-]]]%bind_Ok.
  - intros [-> H]. now rewrite H.
Qed.

Lemma mapM_snd_keys {K A B} {f : A -> res B} {l : list (K * A)} {ds} :
  mapM (on_snd f) l = Ok ds -> map fst ds = map fst l.
Proof.
  intros H%mapM_Ok. induction H as [|kx kd l ds H _ IH]; [reflexivity|].
  apply on_snd_Ok in H as [H _]. cbn [map]. now rewrite H, IH.
Qed.

Lemma mapM_snd_In_l {K A B} (f : A -> res B) (l : list (K * A)) ds k x :
  mapM (on_snd f) l = Ok ds -> In (k, x) l -> exists d, f x = Ok d /\ In (k, d) ds.
Proof.
  intros H%mapM_Ok Hin. destruct (Forall2_In_l H Hin) as [[k' d] [Hd Hkd]].
  apply on_snd_Ok in Hkd as [Hk Hx]. cbn [fst snd] in *. subst k'. eauto.
Qed.

Lemma mapM_snd_In_r {K A B} {f : A -> res B} {l : list (K * A)} {ds k d} :
  mapM (on_snd f) l = Ok ds -> In (k, d) ds -> exists x, f x = Ok d /\ In (k, x) l.
Proof.
  intros H%mapM_Ok Hin. destruct (Forall2_In_r H Hin) as [[k' x] [Hx Hkd]].
  apply on_snd_Ok in Hkd as [Hk Hd]. cbn [fst snd] in *. subst k'. eauto.
Qed.

(** ** String-keyed dicts are field lists *)

Definition skey (kd : str * val) : val * val := (VStr (fst kd), snd kd).

Lemma py_eq_str a b : py_eq (VStr a) (VStr b) = String.eqb a b.
Proof. reflexivity. Qed.

Lemma dget_skey a n : dget (map skey a) n = flookup n a.
Proof.
  unfold dget. induction a as [|[k0 v0] r IH]; [reflexivity|]. cbn [map skey fst snd assoc flookup].
  rewrite py_eq_str. destruct (String.eqb n k0); [reflexivity | exact IH].
Qed.

Lemma dset_skey a k y : dset (map skey a) (VStr k) y = map skey (fset a k y).
Proof.
  induction a as [|[k0 v0] r IH]; [reflexivity|]. cbn [map skey fst snd fset dset].
  rewrite py_eq_str. destruct (String.eqb k k0); cbn [map]; [reflexivity|]. now rewrite IH.
Qed.

Lemma dupdate_skey b : forall a, dupdate (map skey a) (map skey b) = map skey (fset_all a b).
Proof.
  unfold dupdate, fset_all. induction b as [|[k y] r IH]; intros a; [reflexivity|].
  cbn [map fold_left skey fst snd]. rewrite dset_skey. apply IH.
Qed.

Lemma descriptor_dict_skey name params sds :
  descriptor_dict name params (map skey sds) =
  VDict (map skey (fset_all [("__jsonclass__", VList [name; params])] sds)).
Proof. unfold descriptor_dict. now rewrite <- dupdate_skey. Qed.

Section Dump.
  Variable hfun : N -> val -> res val.
  Variable V : variant.
  Variable E : pyenv.
  Variable cfg : config.
  Variable sm ia : str.
  Variable ign : list val.
  Let dump := jc_dump hfun V E cfg sm ia ign.

  Lemma dump_seq v l :
    seq_items v = Some l -> handler_for cfg (type_of v) = None ->
    dump v = do ys <- mapM dump l; Ok (VList ys).
  Proof. intros Hs Hh. destruct v; try discriminate Hs; injection Hs as ->; cbn in *; now rewrite Hh. Qed.

  Lemma dump_dict m :
    handler_for cfg TDict = None -> dump (VDict m) = do ys <- mapM (on_snd dump) m; Ok (VDict ys).
  Proof. intros Hh. cbn. now rewrite Hh. Qed.

  (** an object whose class defines the serialisation method (172-178): its (params, attrs) verbatim *)
  Lemma dump_method c fields d ds :
    handler_for cfg (TClass c) = None -> find_class (e_ctab E) c = Some d -> flookup sm fields = None ->
    mro_find (e_ctab E) c (ser_pred sm) = Some ds ->
    dump (VInst c fields) =
    do pa <- serialize_call ds fields; Ok (descriptor_dict (VStr (dump_name d)) (fst pa) (map skey (snd pa))).
  Proof. intros Hh Hd Hsm Hser. cbn. now rewrite Hh, Hd, Hsm, Hser. Qed.

  Lemma dump_decimal s d :
    handler_for cfg (TClass "decimal.Decimal") = None -> find_class (e_ctab E) "decimal.Decimal" = Some d ->
    dump (VDec s) = Ok (descriptor_dict (VStr (dump_name d)) (VList [VStr s]) []).
  Proof. intros Hh Hd. cbn. now rewrite Hh, Hd. Qed.

  Lemma dump_enum c m d :
    handler_for cfg (TClass c) = None -> find_class (e_ctab E) c = Some d ->
    dump (VEnum c m) = Ok (descriptor_dict (VStr (dump_name d)) (VList [m]) []).
  Proof. intros Hh Hd. cbn. now rewrite Hh, Hd. Qed.

  (** lines 199-213 are a filter followed by the traversal; [field_kept] is the model's name (used by
      [reaches]) for the test [dump_fields] writes inline *)
  Lemma dump_fields_filter (f : val -> res val) ignl fields :
    dump_fields E cfg f ignl fields =
    do sds <- mapM (on_snd f) (filter (field_kept E cfg ignl) fields); Ok (map skey sds).
  Proof.
    induction fields as [|[k x] r IH]; [reflexivity|].
    cbn [dump_fields filter fst snd].
    unfold field_kept at 1, name_ignored. cbn [fst snd]. rewrite IH.
    destruct (existsb (py_eq (VStr k)) ignl); cbn [negb andb]; [reflexivity|].
    destruct (known_type E cfg x && negb (existsb (py_eq x) ignl)); [|reflexivity].
    rewrite mapM_cons. unfold on_snd at 2. cbn [fst snd]. destruct (f x); [|reflexivity].
    destruct (mapM _ _); reflexivity.
  Qed.

  (** an object serialised automatically (185-214): which fields become keys, and of what *)
  Lemma dump_auto c fields d out :
    handler_for cfg (TClass c) = None -> find_class (e_ctab E) c = Some d ->
    flookup sm fields = None -> mro_find (e_ctab E) c (ser_pred sm) = None ->
    dump (VInst c fields) = Ok out <->
    exists ignl sds,
      ignore_list E ia ign c fields = Ok ignl /\ forallb hashable ignl = true /\
      mapM (on_snd dump) (filter (field_kept E cfg ignl) fields) = Ok sds /\
      forallb (fun s => match flookup s fields with Some _ => true | None => name_ignored s ignl end)
              (slots_finder V (e_ctab E) c) = true /\
      out = VDict (map skey (fset_all [("__jsonclass__", VList [VStr (dump_name d); VList []])] sds)).
  Proof.
    intros Hh Hd Hsm Hser. subst dump. cbn [jc_dump type_of]. rewrite Hh, Hd, Hsm, Hser.
    split.
    - intros [ignl [Hi H]]%bind_Ok. exists ignl. destruct (forallb hashable ignl); [|discriminate H]. cbn [negb] in H.
      rewrite dump_fields_filter in H. apply bind_Ok in H as [attrs [Ha H]]. apply bind_Ok in Ha as [sds [Hs [= <-]]].
      exists sds. destruct (forallb _ (slots_finder _ _ _)); [|discriminate H].
      rewrite descriptor_dict_skey in H. injection H as <-. auto.
    - intros [ignl [sds [Hi [Hha [Hs [Hsl ->]]]]]]. apply bind_Ok. exists ignl. split; [exact Hi|].
      now rewrite Hha, dump_fields_filter, Hs, Hsl, <- descriptor_dict_skey.
  Qed.
End Dump.

Lemma dhas_keys a b k : map fst a = map fst b -> dhas a k = dhas b k.
Proof.
  unfold dhas, dget. revert b. induction a as [|[k1 x] a IH]; intros [|[k2 y] b] [=]; [reflexivity|].
  subst k2. cbn [assoc]. destruct (py_eq (VStr k) k1); [reflexivity | now apply IH].
Qed.

(** ** The loops of load over the members of a list and the values of a dict.  A loop visits the
    members up to and including the first whose load fails: it returns the traversal of the values, the
    visited members as their loads left them in front of the others, and the events of the visited
    members. *)

Definition ok_res {A} (r : res A) : bool := match r with Ok _ => true | Raise _ => false end.

Fixpoint visited {A} (ok : A -> bool) (l : list A) : list A :=
  match l with [] => [] | x :: r => x :: if ok x then visited ok r else [] end.

Fixpoint after {A} (ok : A -> bool) (g : A -> A) (l : list A) : list A :=
  match l with [] => [] | x :: r => g x :: if ok x then after ok g r else r end.

Lemma after_map {A B} (ok : A -> bool) g (h : A -> B) l :
  (forall x, In x l -> h (g x) = h x) -> map h (after ok g l) = map h l.
Proof.
  intros H. induction l as [|x r IH]; [reflexivity|]. cbn [after map]. rewrite (H x) by now left.
  destruct (ok x); [|reflexivity]. rewrite IH; [reflexivity | intros y Hy; apply H; now right].
Qed.

Lemma mapM_visited {A B} (F : A -> res B) pre x post e :
  forallb (fun y => ok_res (F y)) pre = true -> F x = Raise e ->
  mapM F (pre ++ x :: post) = Raise e /\
  visited (fun y => ok_res (F y)) (pre ++ x :: post) = (pre ++ [x])%list.
Proof.
  intros Hpre Hx. induction pre as [|y ys IH]; cbn [app visited]; rewrite mapM_cons; [now rewrite Hx|].
  cbn [forallb] in Hpre. apply andb_true_iff in Hpre as [Hy Hys]. destruct (IH Hys) as [-> ->].
  rewrite Hy. now destruct (F y).
Qed.

Lemma ok_on_snd {K A B} (f : A -> res B) (kx : K * A) : ok_res (on_snd f kx) = ok_res (f (snd kx)).
Proof. unfold on_snd. now destruct (f (snd kx)). Qed.

Lemma load_seq_spec (f : val -> lres) l :
  let ok x := ok_res (lres_val (f x)) in
  load_seq f l = (mapM (fun x => lres_val (f x)) l,
                  after ok (fun x => lres_arg (f x)) l,
                  flat_map (fun x => lres_events (f x)) (visited ok l)).
Proof.
  intros ok. induction l as [|x xs IH]; [reflexivity|].
  cbn [load_seq mapM after visited flat_map]. rewrite IH.
  unfold ok, lres_val, lres_arg, lres_events. destruct (f x) as [[[y|e] x'] ev]; cbn; [reflexivity|].
  now rewrite app_nil_r.
Qed.

Lemma load_items_spec (f : val -> lres) m :
  let ok kx := ok_res (on_snd (fun x => lres_val (f x)) kx) in
  load_items f m = (mapM (on_snd (fun x => lres_val (f x))) m,
                    after ok (fun kx => (fst kx, lres_arg (f (snd kx)))) m,
                    flat_map (fun kx => lres_events (f (snd kx))) (visited ok m)).
Proof.
  intros ok. induction m as [|[k x] xs IH]; [reflexivity|].
  cbn [load_items mapM after visited flat_map fst snd]. rewrite IH.
  unfold ok, on_snd, lres_val, lres_arg, lres_events. cbn [fst snd]. destruct (f x) as [[[y|e] x'] ev]; cbn; [reflexivity|].
  now rewrite app_nil_r.
Qed.

(** what [setattr] accepts on an instance of class [c]: the test [field_names_ok] makes on each field
    name and [py_setattr] on its key, written inline in the model (convertible) *)
Definition settable (E : pyenv) (c : str) (d : classdef) (k : str) : bool :=
  negb (dunder k) && (has_dict d || mem_str k (real_slots (e_ctab E) c)).

Lemma py_setattr_settable E c d f0 k z :
  find_class (e_ctab E) c = Some d -> settable E c d k = true ->
  py_setattr E (VInst c f0) (VStr k) z = Ok (VInst c (fset f0 k z)).
Proof.
  unfold settable, py_setattr. intros -> H. apply andb_true_iff in H as [Hdu Hs]. apply negb_true_iff in Hdu.
  rewrite Hdu. destruct (has_dict d); [reflexivity|]. cbn [orb] in Hs. now rewrite Hs.
Qed.

(** 318-320 over attributes that setattr accepts: the loads, then the assignments *)
Lemma setattr_loop_val E (g : val -> lres) c d sds : forall f0,
  find_class (e_ctab E) c = Some d -> forallb (fun kd => settable E c d (fst kd)) sds = true ->
  fst (fst (setattr_loop E g (map skey sds) (VInst c f0))) =
  do kzs <- mapM (on_snd (fun x => lres_val (g x))) sds; Ok (VInst c (fset_all f0 kzs)).
Proof.
  intros f0 Hd. revert f0. induction sds as [|[k y] sds IH]; intros f0 Hok; [reflexivity|].
  cbn [forallb fst] in Hok. apply andb_true_iff in Hok as [Hk Hok].
  cbn [map skey fst snd setattr_loop]. unfold jsonclass_key at 1.
  rewrite py_eq_str, (proj2 (String.eqb_neq _ _)) by (intros <-; discriminate Hk).
  rewrite mapM_cons. unfold on_snd at 1, lres_val at 1. cbn [fst snd].
  destruct (g y) as [[[z|e] y'] ev]; [|reflexivity]. cbn [fst bind].
  rewrite (py_setattr_settable E c d f0 k z Hd Hk). specialize (IH (fset f0 k z) Hok).
  destruct (setattr_loop E g (map skey sds) _) as [[r2 more'] ev2]. cbn [fst] in *. rewrite IH.
  destruct (mapM _ sds); reflexivity.
Qed.

Lemma nth_py_0 {A} (x : A) r : nth_py (x :: r) 0 = Some x.
Proof. reflexivity. Qed.

Lemma nth_py_1 {A} (x y : A) r : nth_py (x :: y :: r) 1 = Some y.
Proof.
  unfold nth_py. cbn [length]. replace (1 <? 0) with false by reflexivity.
  destruct (Z.of_nat (S (S (length r))) <=? 1) eqn:Hn; [lia|]. reflexivity.
Qed.

(** [p] is a list or a dict: the match [descriptor_head] and [construct] make on the params of a descriptor *)
Definition is_params (p : val) : bool := match p with VList _ | VDict _ => true | _ => false end.

(** 294-312 for a class that is neither an enum nor Decimal *)
Lemma construct_inst E c d params args :
  find_class (e_ctab E) c = Some d -> match c_kind d with KEnum | KDecimal => false | _ => true end = true ->
  is_params params = true -> bind_params (c_params d) params = Ok args ->
  construct E c params = Ok (VInst c (ctor_fields (e_ctab E) c args)).
Proof.
  unfold construct. intros Hd Hk Hp Hb.
  destruct params; try discriminate Hp; rewrite Hd; destruct (c_kind d); try discriminate Hk; now rewrite Hb.
Qed.

Lemma construct_decimal E c d s :
  find_class (e_ctab E) c = Some d -> match c_kind d with KDecimal => true | _ => false end = true ->
  dec_ok s = true -> construct E c (VList [VStr s]) = Ok (VDec s).
Proof. unfold construct. intros -> Hk ->. now destruct (c_kind d). Qed.

Lemma construct_enum E c d x m :
  find_class (e_ctab E) c = Some d -> match c_kind d with KEnum => true | _ => false end = true ->
  find (py_eq x) (c_members d) = Some m -> construct E c (VList [x]) = Ok (VEnum c m).
Proof. unfold construct. intros -> Hk ->. now destruct (c_kind d). Qed.

Section Load.
  Variable E : pyenv.
  Variable cl : list (str * str).
  Let loadv d := lres_val (jc_load_m fixed E cl d).

  Lemma load_val_list ds : loadv (VList ds) = do ys <- mapM loadv ds; Ok (VList ys).
  Proof.
    unfold loadv, lres_val. cbn [jc_load_m v_forward fixed]. now rewrite load_seq_spec.
  Qed.

  Lemma load_val_dict m :
    dhas m "__jsonclass__" = false -> loadv (VDict m) = do ys <- mapM (on_snd loadv) m; Ok (VDict ys).
  Proof.
    intros Hd. unfold loadv, lres_val. cbn [jc_load_m v_forward fixed]. now rewrite Hd, load_items_spec.
  Qed.

  (** the descriptor dump writes for class [c]: resolve, construct, then the setattr loop *)
  Lemma load_val_descriptor d c params attrs obj :
    resolves E cl d c = true -> is_params params = true -> construct E c params = Ok obj ->
    loadv (VDict ((jsonclass_key, VList [VStr (dump_name d); params]) :: attrs)) =
    fst (fst (setattr_loop E (jc_load_m fixed E cl) attrs obj)).
  Proof.
    intros Hres Hp Hc. apply andb_true_iff in Hres as [Hname Hres]. apply andb_true_iff in Hname as [Hne Hv].
    unfold loadv, lres_val. cbn [jc_load_m]. change (dhas _ _) with true. cbn [negb].
    unfold descriptor_head. change (py_getitem (VDict _) jsonclass_key) with (Ok (VList [VStr (dump_name d); params])).
    cbn [py_getitem index_of]. rewrite nth_py_0, nth_py_1. cbn [truthy]. rewrite Hne, Hv. cbn [negb].
    destruct (resolve_name E cl (dump_name d)) as [[c'|] ev]; [|discriminate Hres].
    apply String.eqb_eq in Hres. subst c'.
    replace (match params with VList _ | VDict _ => _ | _ => _ end) with (construct E c params, (ev ++ [EvConstruct c])%list)
      by (destruct params; try discriminate Hp; reflexivity).
    rewrite Hc.
    (* the loop skips the popped "__jsonclass__" entry (316) *)
    change (setattr_loop E ?g ((jsonclass_key, ?J) :: attrs) obj) with (setattr_loop E g attrs obj).
    now destruct (setattr_loop _ _ attrs obj) as [[r rest'] ev2].
  Qed.
End Load.
