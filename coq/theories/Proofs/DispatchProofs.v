(** * DispatchProofs — lemmas about Model/Dispatch.v shared by properties C01, C02, C03, C04, C05, C13:
    the equations that say what each function of the dispatcher does on each kind of input, so that
    the theorems rewrite with them instead of unfolding the model.  Here and in the other files of
    Proofs/ for these properties, [Theorem] marks what a statement of Props/ is an instance of; the rest
    is [Lemma]. *)
From JR Require Import Dispatch.

Theorem wf_err_obj f i c m : wf_obj (err_obj f i c m) = true.
Proof. destruct f; reflexivity. Qed.

Theorem wf_resp_obj f i v : wf_obj (resp_obj f i v) = true.
Proof. destruct f; reflexivity. Qed.

Lemma dumpable_err_obj f i c m : dumpable i = true -> dumpable (err_obj f i c m) = true.
Proof. intros H. destruct f; cbn; rewrite H; reflexivity. Qed.

Lemma dumpable_resp_obj f i v : dumpable i = true -> dumpable v = true -> dumpable (resp_obj f i v) = true.
Proof. intros H1 H2. destruct f; cbn; rewrite H1, H2; reflexivity. Qed.

Lemma reply_id_err f i c m : reply_id (err_obj f i c m) = Some i.
Proof. destruct f; reflexivity. Qed.

Lemma reply_id_resp f i v : reply_id (resp_obj f i v) = Some i.
Proof. destruct f; reflexivity. Qed.

Lemma reply_code_err f i c m : reply_code (err_obj f i c m) = Some (VInt c).
Proof. destruct f; reflexivity. Qed.

Lemma reply_message_err f i c m : reply_message (err_obj f i c m) = Some (VStr m).
Proof. destruct f; reflexivity. Qed.

Lemma reply_code_resp f i v : reply_code (resp_obj f i v) = None.
Proof. destruct f; reflexivity. Qed.

Lemma reply_form_err f i c m : reply_form (err_obj f i c m) = Some f.
Proof. destruct f; reflexivity. Qed.

Lemma reply_form_resp f i v : reply_form (resp_obj f i v) = Some f.
Proof. destruct f; reflexivity. Qed.

Lemma prefixb_app a b : prefixb a (a ++ b) = true.
Proof. induction a as [|x a IH]; cbn; [reflexivity|]. now rewrite Ascii.eqb_refl, IH. Qed.

Lemma substrb_app_r x s : substrb x s = true -> forall c, substrb x (c ++ s) = true.
Proof.
  intros H c. induction c as [|y c IH]; [exact H|].
  change ((String y c ++ s)%string) with (String y (c ++ s)).
  cbn [substrb]. rewrite IH. apply orb_true_r.
Qed.

Lemma substrb_app_l a x : substrb x (a ++ x) = true -> forall c, substrb x (c ++ a ++ x) = true.
Proof. apply substrb_app_r. Qed.

Lemma substrb_mid a x b : substrb x (a ++ x ++ b) = true.
Proof.
  apply substrb_app_r.
  destruct (x ++ b)%string eqn:E; cbn [substrb].
  - destruct x; [reflexivity|discriminate].
  - rewrite <- E. now rewrite prefixb_app.
Qed.

Lemma substrb_end a x : substrb x (a ++ x) = true.
Proof.
  assert (H := substrb_mid a x "").
  assert (E : forall s : string, (s ++ "")%string = s).
  { induction s; cbn; congruence. }
  now rewrite E in H.
Qed.

(** the error messages of the dispatcher are built as prefix ++ class ++ separator ++ text *)
Lemma raise_msg_mentions pre cls sep t :
  substrb cls (pre ++ cls ++ sep ++ t) = true /\ substrb t (pre ++ cls ++ sep ++ t) = true.
Proof. split; [apply substrb_mid|apply substrb_app_r, substrb_app_r, substrb_end]. Qed.

Theorem resolve_private segs : forall a,
  existsb starts_with_underscore segs = true -> resolve_segs a segs = None.
Proof.
  induction segs as [|s r IH]; intros a H; [discriminate|].
  cbn [existsb] in H. cbn [resolve_segs].
  destruct (starts_with_underscore s) eqn:Hs; [reflexivity|].
  cbn [orb] in H. destruct a; try reflexivity.
  destruct (lookup s children); [apply IH; exact H|reflexivity].
Qed.

Lemma is_notification_no_id m : is_notification m = no_id (VDict m).
Proof. unfold is_notification, no_id. destruct (dget m "id") as [[]|]; reflexivity. Qed.

Lemma usable_id_eq m : usable_id (VDict m) = if dumpable (request_id m) then request_id m else VNone.
Proof. unfold usable_id, request_id. now destruct (dget m "id"). Qed.

Lemma usable_id_dumpable e : dumpable (usable_id e) = true.
Proof.
  destruct e; try reflexivity. rewrite usable_id_eq. now destruct (dumpable (request_id m)) eqn:E.
Qed.

(** the specification's predicate as the tests of [validate_request] *)
Lemma wellformed_entry_eq m :
  wellformed_entry (VDict m) =
  has_version m && dumpable (request_id m)
  && match dget m "method" with Some (VStr s) => negb (String.eqb s "") | _ => false end
  && is_param_container (params_of (VDict m)).
Proof. unfold wellformed_entry, request_id, params_of. now destruct (dget m "id"), (dget m "params"). Qed.

Lemma wellformed_inv e : wellformed_entry e = true ->
  exists m s, e = VDict m /\ method_of e = Some s /\ s <> ""
              /\ is_param_container (params_of e) = true /\ has_version m = true
              /\ request_id m = usable_id e /\ dumpable (usable_id e) = true.
Proof.
  destruct e; try discriminate. rewrite wellformed_entry_eq, usable_id_eq. cbn [method_of].
  intros H. apply andb_true_iff in H as [H Hp]. apply andb_true_iff in H as [H Hs].
  apply andb_true_iff in H as [Hv Hi].
  destruct (dget m "method") as [[]|]; try discriminate Hs.
  exists m, s. rewrite Hi. repeat split; auto. intros ->. discriminate.
Qed.

Lemma validate_wellformed srvf m s :
  wellformed_entry (VDict m) = true -> method_of (VDict m) = Some s ->
  validate_request srvf (VDict m) = Valid m s (params_of (VDict m)).
Proof.
  intros Hw Hm. destruct (wellformed_inv _ Hw) as (m' & s' & E & Hm' & Hs & Hp & Hv & Hi & Hd).
  inversion E; subst m'. rewrite Hm in Hm'. inversion Hm'; subst s'. clear E Hm'.
  cbn [method_of params_of] in *. unfold validate_request.
  rewrite Hi, Hd, Hv. cbn [negb].
  destruct (dget m "method") as [[]|]; try discriminate Hm. inversion Hm; subst.
  apply String.eqb_neq in Hs. now rewrite Hs, Hp.
Qed.

Lemma validate_illformed srvf e :
  wellformed_entry e = false ->
  exists msg, validate_request srvf e = Invalid (mkFault (-32600) msg (usable_id e) srvf).
Proof.
  destruct e; try (eexists; reflexivity).
  rewrite wellformed_entry_eq, usable_id_eq. unfold validate_request. cbn [params_of].
  (* the tests of validate_request in its order: at each, the failing branch is an Invalid with the
     entry's usable id, and one live goal goes on *)
  destruct (dumpable (request_id m)); cbn [negb]; [|eexists; reflexivity]. rewrite andb_true_r.
  destruct (has_version m); cbn [negb andb]; [|eexists; reflexivity].
  destruct (dget m "method") as [[]|]; try (eexists; reflexivity).
  intros ->. eexists; reflexivity.
Qed.

Section Proofs.
  Variable body : cid -> val -> outcome.
  Variable sigs : cid -> signature.

  Notation call_func := (call_func body sigs).
  Notation dispatch := (dispatch body sigs).
  Notation dispatch_resolved := (dispatch_resolved body sigs).
  Notation run_target := (run_target body sigs).
  Notation single_dispatch := (single_dispatch body sigs).
  Notation answer_entry := (answer_entry body sigs).
  Notation marshaled_dispatch := (marshaled_dispatch body sigs).

  Definition returned (v : val) : Prop := exists c a, body c a = Return v.

  Definition conv (jc : bool) (v : val) : res val := if jc then convert v else Ok v.

  (** hypothesis of C02 on the callables *)
  Definition results_dumpable (jc : bool) : Prop :=
    forall c a v v', body c a = Return v -> conv jc v = Ok v' -> dumpable v' = true.

  Lemma call_func_eq c p :
    call_func c p =
    if call_binds (sigs c) p
    then (match body c p with
          | Return v => DVal v
          | RaiseTypeErrorInBody m => DFault (-32602) ("Invalid parameters: " ++ m)
          | ReturnFault code m => DFault code m
          | RaiseExn cls m => if String.eqb cls "TypeError"
                              then DFault (-32602) ("Invalid parameters: " ++ m)
                              else DFault (-32603) ("Server error: raise | " ++ cls ++ ": " ++ m)
          end, [EvCall c p])
    else (DFault (-32602) "Invalid parameters: argument mismatch", []).
  Proof.
    unfold Dispatch.call_func. destruct (call_binds (sigs c) p); [|reflexivity].
    destruct (body c p); try reflexivity. now destruct (String.eqb cls "TypeError").
  Qed.

  Lemma call_func_log c p :
    snd (call_func c p) = if call_binds (sigs c) p then [EvCall c p] else [].
  Proof. rewrite call_func_eq. now destruct (call_binds (sigs c) p). Qed.

  Lemma call_func_raises c p cls t :
    call_binds (sigs c) p = true -> body c p = RaiseExn cls t -> cls <> "TypeError" ->
    exists msg, call_func c p = (DFault (-32603) msg, [EvCall c p])
                /\ substrb cls msg = true /\ substrb t msg = true.
  Proof.
    intros H2 H3 H4. rewrite call_func_eq, H2, H3. apply String.eqb_neq in H4. rewrite H4.
    eexists. split; [reflexivity|]. apply raise_msg_mentions.
  Qed.

  Lemma call_dispatcher_log d s p :
    snd (call_dispatcher body d s p) = [EvCall d (dispatch_args s p)].
  Proof. unfold call_dispatcher. now destruct (body d (dispatch_args s p)). Qed.

  (** the instance's own _dispatch declines a method by raising AttributeError *)
  Definition declines (o : outcome) : bool :=
    match o with RaiseExn cls _ => String.eqb cls "AttributeError" | _ => false end.

  Lemma dispatch_eq reg s p :
    dispatch reg s p =
    match lookup s (r_funcs reg), r_instance reg with
    | Some c, _ => call_func c p
    | None, None => unknown_method s
    | None, Some inst =>
        match i_dispatch inst with
        | None => dispatch_resolved inst s p
        | Some d => if declines (body d (dispatch_args s p))
                    then (fst (dispatch_resolved inst s p),
                          EvCall d (dispatch_args s p) :: snd (dispatch_resolved inst s p))
                    else call_dispatcher body d s p
        end
    end.
  Proof.
    unfold Dispatch.dispatch. destruct (lookup s (r_funcs reg)), (r_instance reg) as [inst|]; try reflexivity.
    destruct (i_dispatch inst) as [d|]; [|reflexivity]. unfold call_dispatcher, declines.
    destruct (body d (dispatch_args s p)); try reflexivity.
    destruct (String.eqb cls "AttributeError"); [|reflexivity].
    now destruct (dispatch_resolved inst s p).
  Qed.

  Lemma dispatch_func {reg s} p {c} : lookup s (r_funcs reg) = Some c -> dispatch reg s p = call_func c p.
  Proof. intros H. now rewrite dispatch_eq, H. Qed.

  Lemma dispatch_instance {reg inst s} p :
    lookup s (r_funcs reg) = None -> r_instance reg = Some inst -> i_dispatch inst = None ->
    dispatch reg s p = dispatch_resolved inst s p.
  Proof. intros H1 H2 H3. now rewrite dispatch_eq, H1, H2, H3. Qed.

  Lemma dispatch_no_instance reg s p :
    lookup s (r_funcs reg) = None -> r_instance reg = None -> dispatch reg s p = unknown_method s.
  Proof. intros H1 H2. now rewrite dispatch_eq, H1, H2. Qed.

  Lemma dispatch_custom {reg inst d s} p :
    lookup s (r_funcs reg) = None -> r_instance reg = Some inst -> i_dispatch inst = Some d ->
    dispatch reg s p =
    if declines (body d (dispatch_args s p))
    then (fst (dispatch_resolved inst s p),
          EvCall d (dispatch_args s p) :: snd (dispatch_resolved inst s p))
    else call_dispatcher body d s p.
  Proof. intros H1 H2 H3. now rewrite dispatch_eq, H1, H2, H3. Qed.

  Lemma call_func_returned c p v : fst (call_func c p) = DVal v -> returned v.
  Proof.
    rewrite call_func_eq. destruct (call_binds (sigs c) p); [|discriminate]. cbn [fst].
    destruct (body c p) eqn:E; try discriminate.
    - intros [= ->]. now exists c, p.
    - destruct (String.eqb cls "TypeError"); discriminate.
  Qed.

  Lemma call_dispatcher_returned d s p v : fst (call_dispatcher body d s p) = DVal v -> returned v.
  Proof.
    unfold call_dispatcher. destruct (body d (dispatch_args s p)) eqn:E; try discriminate.
    intros [= ->]. now exists d, (dispatch_args s p).
  Qed.

  Lemma dispatch_resolved_returned inst s p v : fst (dispatch_resolved inst s p) = DVal v -> returned v.
  Proof.
    unfold Dispatch.dispatch_resolved, unknown_method.
    destruct (resolve_segs _ _) as [[]|]; try discriminate. apply call_func_returned.
  Qed.

  Lemma dispatch_returned reg s p v : fst (dispatch reg s p) = DVal v -> returned v.
  Proof.
    rewrite dispatch_eq. destruct (lookup s (r_funcs reg)); [apply call_func_returned|].
    destruct (r_instance reg) as [inst|]; [|discriminate].
    destruct (i_dispatch inst); [|apply dispatch_resolved_returned].
    destruct (declines _); [apply dispatch_resolved_returned|apply call_dispatcher_returned].
  Qed.

  Lemma run_target_returned reg dm s p v : fst (run_target reg dm s p) = DVal v -> returned v.
  Proof. destruct dm; [apply call_dispatcher_returned|apply dispatch_returned]. Qed.

  (** *** The reply object to a call, as a function of what the dispatch target yielded
      (_marshaled_single_dispatch after the notification test) *)

  Definition reply_of (f : form) (jc : bool) (i : val) (r : dres) : val :=
    match r with
    | DVal v => match conv jc v with
                | Ok v' => resp_obj f i v'
                | Raise _ => err_obj f i (-32603) "ConversionError:"
                end
    | DFault c msg => err_obj f i c msg
    | DExn cls msg => err_obj f i (-32603) (cls ++ ":" ++ msg)
    end.

  Lemma reply_of_wf f jc i r : wf_obj (reply_of f jc i r) = true.
  Proof. destruct r; cbn; [destruct (conv jc v)|..]; auto using wf_err_obj, wf_resp_obj. Qed.

  Lemma reply_of_id f jc i r : reply_id (reply_of f jc i r) = Some i.
  Proof. destruct r; cbn; [destruct (conv jc v)|..]; auto using reply_id_err, reply_id_resp. Qed.

  Lemma reply_of_form f jc i r : reply_form (reply_of f jc i r) = Some f.
  Proof. destruct r; cbn; [destruct (conv jc v)|..]; auto using reply_form_err, reply_form_resp. Qed.

  Lemma reply_of_dumpable f jc i r :
    results_dumpable jc -> (forall v, r = DVal v -> returned v) -> dumpable i = true ->
    dumpable (reply_of f jc i r) = true.
  Proof.
    intros R Hr Hi. destruct r; cbn; try now apply dumpable_err_obj.
    destruct (conv jc v) eqn:E; [|now apply dumpable_err_obj].
    destruct (Hr v eq_refl) as (c & a0 & Hb). apply dumpable_resp_obj; eauto.
  Qed.

  Lemma single_dispatch_eq srvf srv dm m s p :
    single_dispatch srvf srv dm m s p =
    if is_notification m
    then (None, if sv_pool srv
                then [EvEnqueue dm s p (match dm with Some _ => None | None => Some (request_form srvf m) end)]
                else snd (run_target (sv_reg srv) dm s p))
    else (Some (reply_of (request_form srvf m) (sv_jsonclass srv) (request_id m)
                         (fst (run_target (sv_reg srv) dm s p))),
          snd (run_target (sv_reg srv) dm s p)).
  Proof.
    unfold Dispatch.single_dispatch, single_dispatch_with.
    destruct (is_notification m), (sv_pool srv); cbn [andb]; try reflexivity.
    all: destruct (run_target (sv_reg srv) dm s p) as [[] log]; cbn [fst snd reply_of]; try reflexivity.
    all: unfold conv; destruct (if sv_jsonclass srv then convert v else Ok v); reflexivity.
  Qed.

  Lemma answer_call srvf srv dm m s :
    wellformed_entry (VDict m) = true -> method_of (VDict m) = Some s -> no_id (VDict m) = false ->
    answer_entry srvf srv dm (VDict m) =
    (Some (reply_of (request_form srvf m) (sv_jsonclass srv) (usable_id (VDict m))
                    (fst (run_target (sv_reg srv) dm s (params_of (VDict m))))),
     snd (run_target (sv_reg srv) dm s (params_of (VDict m)))).
  Proof.
    intros Hw Hm Hn. unfold Dispatch.answer_entry. rewrite (validate_wellformed _ _ _ Hw Hm), single_dispatch_eq.
    rewrite is_notification_no_id, Hn.
    destruct (wellformed_inv _ Hw) as (m' & _ & E & _ & _ & _ & _ & Hi & _). inversion E; subst m'.
    now rewrite Hi.
  Qed.

  Lemma answer_notification srvf srv dm m s :
    is_notification_entry (VDict m) = true -> method_of (VDict m) = Some s ->
    answer_entry srvf srv dm (VDict m) =
    (None, if sv_pool srv
           then [EvEnqueue dm s (params_of (VDict m))
                           (match dm with Some _ => None | None => Some (request_form srvf m) end)]
           else snd (run_target (sv_reg srv) dm s (params_of (VDict m)))).
  Proof.
    intros Hn Hm. apply andb_true_iff in Hn as [Hw Hn]. unfold Dispatch.answer_entry.
    now rewrite (validate_wellformed _ _ _ Hw Hm), single_dispatch_eq, is_notification_no_id, Hn.
  Qed.

  Lemma answer_invalid srvf srv dm e :
    wellformed_entry e = false ->
    exists msg, answer_entry srvf srv dm e = (Some (err_obj srvf (usable_id e) (-32600) msg), []).
  Proof.
    intros Hw. destruct (validate_illformed srvf e Hw) as (msg & E). exists msg.
    unfold Dispatch.answer_entry. now rewrite E.
  Qed.

  (** the form an entry is answered in *)
  Definition entry_form (srvf : form) (e : val) : form :=
    if wellformed_entry e then match e with VDict m => request_form srvf m | _ => srvf end else srvf.

  Lemma answer_entry_inv srvf srv dm e :
    match fst (answer_entry srvf srv dm e) with
    | None => is_notification_entry e = true
    | Some o => is_notification_entry e = false
                /\ exists r, o = reply_of (entry_form srvf e) (sv_jsonclass srv) (usable_id e) r
                             /\ forall v, r = DVal v -> returned v
    end.
  Proof.
    unfold entry_form, is_notification_entry. destruct (wellformed_entry e) eqn:Hw; cbn [andb].
    - destruct (wellformed_inv _ Hw) as (m & s & -> & Hm & _). destruct (no_id (VDict m)) eqn:Hn.
      + rewrite (answer_notification _ _ _ _ s); [reflexivity|now apply andb_true_iff|assumption].
      + rewrite (answer_call _ _ _ _ s) by assumption.
        split; [reflexivity|]. eexists. split; [reflexivity|]. apply run_target_returned.
    - destruct (answer_invalid srvf srv dm e Hw) as (msg & ->).
      split; [reflexivity|]. now exists (DFault (-32600) msg).
  Qed.

  Theorem answer_entry_none_iff srvf srv dm e :
    fst (answer_entry srvf srv dm e) = None <-> is_notification_entry e = true.
  Proof.
    pose proof (answer_entry_inv srvf srv dm e) as A.
    destruct (fst (answer_entry srvf srv dm e)); [|tauto].
    destruct A as [-> _]. split; discriminate.
  Qed.

  Theorem id_echo srvf srv dm e o log :
    answer_entry srvf srv dm e = (Some o, log) -> reply_id o = Some (usable_id e).
  Proof.
    intros H. pose proof (answer_entry_inv srvf srv dm e) as A. rewrite H in A.
    destruct A as (_ & r & -> & _). apply reply_of_id.
  Qed.

  Theorem answer_wf srvf srv dm e o log :
    answer_entry srvf srv dm e = (Some o, log) -> wf_obj o = true.
  Proof.
    intros H. pose proof (answer_entry_inv srvf srv dm e) as A. rewrite H in A.
    destruct A as (_ & r & -> & _). apply reply_of_wf.
  Qed.

  Theorem answer_dumpable srvf srv dm e o log :
    results_dumpable (sv_jsonclass srv) ->
    answer_entry srvf srv dm e = (Some o, log) -> dumpable o = true.
  Proof.
    intros R H. pose proof (answer_entry_inv srvf srv dm e) as A. rewrite H in A.
    destruct A as (_ & r & -> & Hr). apply reply_of_dumpable; auto using usable_id_dumpable.
  Qed.

  Lemma batch_cons srvf srv dm e r :
    batch body sigs srvf srv dm (e :: r) =
    ((opt_list (fst (answer_entry srvf srv dm e)) ++ fst (batch body sigs srvf srv dm r))%list,
     (snd (answer_entry srvf srv dm e) ++ snd (batch body sigs srvf srv dm r))%list).
  Proof.
    cbn [batch]. destruct (answer_entry srvf srv dm e) as [o l].
    destruct (batch body sigs srvf srv dm r) as [os ls]. reflexivity.
  Qed.

  Theorem batch_answers srvf srv dm es :
    fst (batch body sigs srvf srv dm es)
    = flat_map (fun e => opt_list (fst (answer_entry srvf srv dm e))) es.
  Proof.
    induction es as [|e r IH]; [reflexivity|].
    rewrite batch_cons. cbn [fst flat_map]. now rewrite IH.
  Qed.

  Lemma batch_app srvf srv dm es1 es2 :
    batch body sigs srvf srv dm (es1 ++ es2) =
    ((fst (batch body sigs srvf srv dm es1) ++ fst (batch body sigs srvf srv dm es2))%list,
     (snd (batch body sigs srvf srv dm es1) ++ snd (batch body sigs srvf srv dm es2))%list).
  Proof.
    induction es1 as [|e r IH].
    - cbn. now destruct (batch body sigs srvf srv dm es2).
    - change ((e :: r) ++ es2)%list with (e :: (r ++ es2))%list.
      rewrite !batch_cons, IH. cbn [fst snd]. now rewrite !app_assoc.
  Qed.

  (** one response per entry that expects one, in entry order, each with its entry's id *)
  Theorem batch_one_to_one srvf srv dm es :
    map reply_id (fst (batch body sigs srvf srv dm es))
    = map (fun e => Some (usable_id e)) (filter expects_answer es).
  Proof.
    induction es as [|e r IH]; [reflexivity|].
    rewrite batch_cons. cbn [fst filter]. rewrite map_app, IH. unfold expects_answer.
    pose proof (answer_entry_inv srvf srv dm e) as A.
    destruct (fst (answer_entry srvf srv dm e)) as [o|]; cbn [opt_list].
    - destruct A as (-> & r' & -> & _). cbn [negb map app]. now rewrite reply_of_id.
    - now rewrite A.
  Qed.

  Lemma batch_length srvf srv dm es :
    length (fst (batch body sigs srvf srv dm es)) = length (filter expects_answer es).
  Proof.
    pose proof (batch_one_to_one srvf srv dm es) as H.
    apply (f_equal (@length _)) in H. now rewrite !map_length in H.
  Qed.

  Lemma batch_forallb (P : val -> bool) srvf srv dm es :
    (forall e o log, answer_entry srvf srv dm e = (Some o, log) -> P o = true) ->
    forallb P (fst (batch body sigs srvf srv dm es)) = true.
  Proof.
    intros HP. induction es as [|e r IH]; [reflexivity|].
    rewrite batch_cons. cbn [fst]. rewrite forallb_app, IH, andb_true_r.
    destruct (answer_entry srvf srv dm e) as [[o|] l] eqn:E; cbn; [|reflexivity].
    now rewrite (HP _ _ _ E).
  Qed.

  Lemma batch_wf srvf srv dm es :
    forallb wf_obj (fst (batch body sigs srvf srv dm es)) = true.
  Proof. apply batch_forallb, answer_wf. Qed.

  Lemma batch_dumpable srvf srv dm es :
    results_dumpable (sv_jsonclass srv) ->
    forallb dumpable (fst (batch body sigs srvf srv dm es)) = true.
  Proof. intros R. apply batch_forallb. intros e o log. now apply answer_dumpable. Qed.

  Definition marshal_one (ol : option val * list event) : res (reply * list event) :=
    match ol with
    | (None, l) => Ok (REmpty, l)
    | (Some o, l) => if dumpable o then Ok (ROne o, l) else Raise EType
    end.

  Lemma marshaled_error srvf srv dm :
    marshaled_dispatch srvf srv dm PError = Ok (ROne (err_obj srvf VNone (-32700) "Request invalid."), []).
  Proof. reflexivity. Qed.

  Lemma marshaled_falsy srvf srv dm v :
    truthy v = false ->
    marshaled_dispatch srvf srv dm (PValue v)
    = Ok (ROne (err_obj srvf VNone (-32600) "Request invalid -- no request data."), []).
  Proof.
    intros H. unfold Dispatch.marshaled_dispatch, unmarshaled_dispatch. cbn [loads_m]. rewrite H. cbn [negb].
    now rewrite dumpable_err_obj.
  Qed.

  Lemma marshaled_empty srvf srv dm :
    marshaled_dispatch srvf srv dm PEmpty
    = Ok (ROne (err_obj srvf VNone (-32600) "Request invalid -- no request data."), []).
  Proof. exact (marshaled_falsy srvf srv dm VNone eq_refl). Qed.

  Lemma marshaled_single srvf srv dm e :
    truthy e = true -> is_list e = false ->
    marshaled_dispatch srvf srv dm (PValue e) = marshal_one (answer_entry srvf srv dm e).
  Proof.
    intros Ht Hl. unfold Dispatch.marshaled_dispatch, unmarshaled_dispatch. cbn [loads_m]. rewrite Ht. cbn [negb].
    destruct e; try discriminate Hl; destruct (answer_entry srvf srv dm _) as [[o|] lg]; reflexivity.
  Qed.

  Lemma marshaled_batch srvf srv dm es :
    es <> [] ->
    marshaled_dispatch srvf srv dm (PValue (VList es)) =
    if forallb dumpable (fst (batch body sigs srvf srv dm es))
    then Ok (match fst (batch body sigs srvf srv dm es) with [] => REmpty | os => RMany os end,
             snd (batch body sigs srvf srv dm es))
    else Raise EType.
  Proof.
    intros Hne. unfold Dispatch.marshaled_dispatch, unmarshaled_dispatch. cbn [loads_m].
    destruct es; [contradiction|]. cbn [truthy negb].
    destruct (batch body sigs srvf srv dm (v :: es)) as [[|o os] l]; reflexivity.
  Qed.

  Lemma do_post_ok srvf srv dm p r log :
    marshaled_dispatch srvf srv dm p = Ok (r, log) -> do_post body sigs srvf srv dm p = (200, r).
  Proof. intros E. unfold do_post. now rewrite E. Qed.

  Lemma do_post_raised srvf srv dm p x :
    marshaled_dispatch srvf srv dm p = Raise x ->
    do_post body sigs srvf srv dm p
    = (500, ROne (err_obj srvf VNone (-32603) "Server error: exception in the dispatcher")).
  Proof. intros E. unfold do_post. now rewrite E. Qed.

End Proofs.
Arguments answer_dumpable {body sigs srvf srv dm e o log}.
Arguments do_post_ok {body sigs srvf srv dm p r log}.
Arguments do_post_raised {body sigs srvf srv dm p x}.
