(** * DispatchBridge — the reply objects of Model/Dispatch.v are the ones the general
    message-construction model (Model/Payload.v, property C14) builds for versions 1.0 and 2.0. *)
From JR Require Import Payload Dispatch.

Definition ver_of (f : form) : val := match f with V1 => VFlt (F 1 1) | V2 => VFlt (F 2 1) end.
Definition rat_ver (f : form) : rat := match f with V1 => (1, 1%positive) | V2 => (2, 1%positive) end.

Lemma bridge_form f : form_of_version (ver_of f) = Some f.
Proof. destruct f; reflexivity. Qed.

Lemma bridge_payload_init dv f i : payload_init dv i (ver_of f) = Ok (mkPayload i (rat_ver f)).
Proof. destruct f; reflexivity. Qed.

Lemma bridge_response f i v : payload_response (mkPayload i (rat_ver f)) v = Ok (resp_obj f i v).
Proof. destruct f; reflexivity. Qed.

Lemma bridge_error f i c m :
  payload_error (mkPayload i (rat_ver f)) (VInt c) (VStr m) VNone = Ok (err_obj f i c m).
Proof. destruct f; reflexivity. Qed.

(** Fault.dump() without forced id / version, for any use_jsonclass flag and any DEFAULT version *)
Lemma bridge_fault_dump dv jc f i c m :
  fst (Payload.fault_dump dv (Payload.mkFault (VInt c) (VStr m) i (mkPcfg (ver_of f) jc) VNone) VNone VNone)
  = Ok (Dispatch.fault_dump (Dispatch.mkFault c m i f)).
Proof. destruct f; reflexivity. Qed.
