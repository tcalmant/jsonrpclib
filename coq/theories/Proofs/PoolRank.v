(** The rank of a worker once the stop flag is set (wrank, its distance to WDead): every step of its own decreases it,
    no step of another thread increases it; what this means for "every worker thread terminates on its own" is said at
    the claims, in Props/C11.v.  The end of the file defines the rank of stop() itself (cphase, cinner, crank, lex_lt);
    its one statement, C11_stop_steps_decrease, is proved in Props/C11.v. *)
From JR Require Import PoolInvDefs PoolInvA PoolInvE.

(** the distance to WDead along __run once the flag is set; WLoop and WSentDone both go to WFLock next; a worker at WNew
    is taken to WLoop by its creator's CSTStart *)
Definition wrank (l : wlabel) : nat :=
  match l with
  | WGet => 22 | WLock1 => 21 | WActInc => 20 | WUnlock1 => 19 | WBegin => 18 | WBody => 17 | WTaskDone => 16
  | WLock2 => 15 | WPendDec => 14 | WActDec => 13 | WUnlock2 => 12 | WLock3 => 11 | WTest => 10
  | WNbDec => 9 | WUnlock3R => 8 | WUnlock3 => 7 | WLoop => 6 | WSentDone => 6
  | WFLock => 5 | WFRemove => 4 | WFNbDec => 3 | WFUnlock => 2
  | WNew => 7 | WNone => 0 | WDead => 0
  end.

Lemma worker_rank_decreases {s w f s'} :
  stopped s = true -> step s (TW w) f = Some s' ->
  (wrank (wpc (ws s' w)) < wrank (wpc (ws s w)))%nat /\ stopped s' = true.
Proof.
  intros Hst H. apply step_Step in H. inversion H as [w0 l h cl s1 Ew HS|]; subst.
  destruct (WStep_frame HS) as (_ & -> & _). split; [|exact Hst].
  rewrite Ew. destruct HS; simp; rewrite upd_same; cbn [wpc wrank]; try lia.
  (* the one edge to a higher rank, WLoop to WGet, is taken with the flag clear *)
  congruence.
Qed.

(** a bound on the remaining own steps of a worker once the stop flag is set: any sequence of n of its
    steps (each one a real step, the flag staying set) has n <= its rank <= 22 *)
Fixpoint wsteps (s : st) (w : nat) (fs : list bool) : option st :=
  match fs with
  | [] => Some s
  | f :: r => match step s (TW w) f with Some s' => wsteps s' w r | None => None end
  end.

Theorem worker_exits_within_rank : forall fs s w s',
  stopped s = true -> wsteps s w fs = Some s' -> (length fs + wrank (wpc (ws s' w)) <= wrank (wpc (ws s w)))%nat.
Proof.
  induction fs as [|f r IH]; intros s w s' Hst H; cbn [wsteps length] in *.
  - inversion H. lia.
  - destruct (step s (TW w) f) as [s1|] eqn:E; [|discriminate].
    destruct (worker_rank_decreases Hst E) as [Hlt Hst1]. specialize (IH _ _ _ Hst1 H). lia.
Qed.

Lemma wrank_le l : (wrank l <= 22)%nat.
Proof. destruct l; cbn; lia. Qed.

(** no step of any other thread moves a created worker away from its exit while the flag is set *)
Theorem worker_rank_monotone s t f s' w :
  I_created s -> stopped s = true -> step s t f = Some s' -> wpc (ws s w) <> WNone ->
  (wrank (wpc (ws s' w)) <= wrank (wpc (ws s w)))%nat.
Proof.
  intros Hcr Hst H Hn. destruct (thr_eq_dec t (TW w)) as [->|Hne].
  - destruct (worker_rank_decreases Hst H). lia.
  - (* another thread leaves the record alone, or starts the worker: WNew to WLoop *)
    apply step_Step in H. destruct (Step_others Hcr H) as [_ Ho].
    destruct (Ho w Hne) as [->|[[_ E]|[-> ->]]]; [lia | rewrite E in Hn; contradiction | cbn; lia].
Qed.

(** the controlling thread inside stop(): phase and position inside the phase *)
Definition cphase (l : clabel) : nat :=
  match l with
  | CSPSet => 12 | CSPLock => 11 | CSPPut _ => 10 | CSPCopy => 9 | CSPUnlock _ => 8
  | CSPAlive _ | CSPJoin _ | CSPAlive2 _ => 7
  | CSPDel => 6 | CCLLock => 5 | CCLGet | CCLDone => 4
  | CJTest _ JClear => 3 | CJQJoin JClear => 2 | CCLUnlock => 1
  | _ => 0
  end.
(** the position inside a phase.  Polling the worker at the head of a list of n goes CSPAlive, CSPJoin, CSPAlive2 (3n+2,
    3n+1, 3n), then on to the rest; from CSPAlive2 back to CSPAlive while the worker lives is the one edge that goes up *)
Definition cinner (s : st) (l : clabel) : nat :=
  match l with
  | CSPPut n => n
  | CSPAlive ths => 3 * length ths + 2
  | CSPJoin ths => 3 * length ths + 1
  | CSPAlive2 ths => 3 * length ths
  | CCLGet => 2 * length (q s) + 1
  | CCLDone => 2 * length (q s) + 2
  | _ => 0
  end.
Definition crank (s : st) : nat * nat := (cphase (ctl s), cinner s (ctl s)).
Definition lex_lt (a b : nat * nat) : Prop := (fst a < fst b)%nat \/ (fst a = fst b /\ (snd a < snd b)%nat).

Lemma entry_phase c l : entry c l -> cphase l = 0%nat.
Proof. destruct 1; reflexivity. Qed.
