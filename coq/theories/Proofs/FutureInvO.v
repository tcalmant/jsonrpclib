(** * FutureInvO — what done() / result() can observe *)
From Coq Require Import List Arith.
From JR Require Import Sched Future FutureInv.

Section Inv.
Variable c : cfg.

(** while the task body has not finished *)
Definition pre_ok (s : st) (j : nat) : Prop :=
  match op s j with
  | O_start => True
  | O_read_exc => owaited s j = false
  | O_reraise | O_read_data => False
  | O_end => oobs s j = Some (ObsDone false) \/ oobs s j = Some ObsTimeout
  end.
Definition O2 s := xp s = X_body -> forall j, pre_ok s j.

(** classification of every observer by its pc *)
Definition cls (s : st) (j : nat) : Prop :=
  match op s j with
  | O_start => oobs s j = None
  | O_read_exc => (owaited s j = true -> ev s = true) /\ obsk c j <> ODone /\ (owaited s j = false -> obsk c j = OResultT)
  | O_reraise => exc s <> None /\ obsk c j <> ODone
  | O_read_data => ev s = true /\ exc s = None /\ obsk c j <> ODone
  | O_end => exists o, oobs s j = Some o /\
               (o = expected_obs c (obsk c j) \/ (o = ObsDone false /\ obsk c j = ODone) \/ (o = ObsTimeout /\ obsk c j = OResultT))
  end.
Definition O3 s := forall j, cls s j.
Definition O1 s := forall j, op s j <> O_end -> oobs s j = None.
Definition InvO s := O1 s /\ O2 s /\ O3 s.

Lemma O_x : forall s s', InvA c s -> InvO s -> step_x c s = Some s' -> InvO s'.
Proof.
  intros s s' A (O1' & O2' & O3') H. destruct A as (_ & _ & _ & _ & D2' & D3' & _).
  unfold InvO, O1, O2, O3, D2, D3 in *.
  unfold step_x in H. destruct (xp s) eqn:Ex; try discriminate H; unstep H; try rewrite notify_writes.
  all: conj; try assumption; try discriminate.
  - (* x_store_exc, O3: the event is not set (D3) and no exception was stored (D2): no observer is past its wait *)
    intros j. specialize (O3' j). unfold cls in *; simp. cbn in D2', D3'.
    destruct (op s j); try assumption; intuition congruence.
  - (* x_event_set, O3: what an observer needs of the event now holds *)
    intros j. specialize (O3' j). unfold cls in *; simp.
    destruct (op s j); try assumption; intuition congruence.
Qed.

(** what result() must give once the future is done, by how the task ended *)
Lemma expected_raise : forall kd x, kd <> ODone -> x = out_exc (body c) -> x <> None ->
  match x with Some e => ObsRaise e | None => ObsTypeErr end = expected_obs c kd.
Proof.
  intros kd x N -> E; unfold expected_obs. destruct kd; [contradiction|..]; destruct (body c); cbn in *; congruence.
Qed.

Lemma expected_return : forall kd, kd <> ODone -> out_exc (body c) = None -> expected_obs c kd = ObsRet (out_data (body c)).
Proof. intros kd N E; unfold expected_obs. destruct kd; [contradiction|..]; destruct (body c); cbn in *; congruence. Qed.

(** the invariant is pointwise in the observer *)
Definition Oat (s : st) (j : nat) : Prop :=
  (op s j <> O_end -> oobs s j = None) /\ (xp s = X_body -> pre_ok s j) /\ cls s j.

Lemma InvO_at : forall s, InvO s <-> forall j, Oat s j.
Proof.
  intros s; unfold InvO, O1, O2, O3, Oat. split.
  - intros (H1 & H2 & H3) j. auto.
  - intros H. conj; intros; apply H; assumption.
Qed.

Lemma O_o : forall s m k s', InvA c s -> InvO s -> m = Go (TO k) \/ m = Fire (TO k) -> step c s m = Some s' -> InvO s'.
Proof.
  intros s m k s' A O Hm H. apply InvO_at. intros j. pose proof (proj1 (InvO_at s) O j) as Oj.
  destruct (Nat.eq_dec j k) as [->|Hne].
  2: { (* observer k writes only its own fields *)
    destruct Hm as [-> | ->]; unstep H; unfold Oat, pre_ok, cls in *; simp; rewrite !upd_other by assumption; exact Oj. }
  pose proof (done_outcome c s A) as Hfin. destruct A as (_ & _ & _ & _ & D2' & D3' & _). unfold D2, D3 in *.
  destruct Oj as (K1 & K2 & K3). unfold Oat, pre_ok, cls in *.
  destruct Hm as [-> | ->]; cbn [step] in H.
  - unfold step_o in H. destruct (op s k) eqn:Ek; try discriminate H; unstep H; simp; rewrite !upd_same.
    + (* done(): returns the event (D3) *)
      split; [congruence|]. split; [intros Hx; rewrite D3', Hx; left; reflexivity|].
      eexists; split; [reflexivity|]. destruct (ev s); [left; reflexivity | right; left; split; reflexivity].
    + (* result(timeout), the event is set: the body has finished (D3) *)
      split; [intros _; exact K3|]. split; [intros Hx; rewrite Hx in D3'; exact D3'|]. conj; congruence.
    + split; [intros _; exact K3|]. split; [intros Hx; rewrite Hx in D3'; exact D3'|]. conj; congruence.
    + (* the wait returned, an exception is stored: the body has finished (D2) *)
      destruct K3 as (_ & Hk & _). split; [intros _; apply K1; discriminate|].
      split; [intros Hx; rewrite Hx in D2'; discriminate D2'|]. split; [congruence | exact Hk].
    + (* the wait returned true: not before the body has finished (O2), the event is set (O3) *)
      destruct K3 as (Hev & Hk & _). split; [intros _; apply K1; discriminate|].
      split; [intros Hx; discriminate (K2 Hx)|]. conj; auto.
    + (* the wait timed out: only result(timeout) can (O3) *)
      destruct K3 as (_ & _ & Hk). split; [congruence|]. split; [intros _; right; reflexivity|].
      eexists; split; [reflexivity|]. right; right; auto.
    + (* raise: the stored exception is the task's (D2), so the task raised *)
      destruct K3 as (He & Hk). split; [congruence|]. split; [intros Hx; destruct (K2 Hx)|].
      eexists; split; [reflexivity|]. left.
      destruct (x_ge_exc (xp s)); [|destruct (He D2')]. exact (expected_raise _ _ Hk D2' He).
    + (* return: the event is set, so the outcome is stored (done_outcome); no exception: the task returned *)
      destruct K3 as (Hev & He & Hk). destruct (Hfin Hev) as (Hd & Hx').
      split; [congruence|]. split; [intros Hx; destruct (K2 Hx)|].
      eexists; split; [reflexivity|]. left. rewrite Hd, (expected_return _ Hk); [reflexivity | congruence].
  - (* the timeout of the wait expires: the event is not set *)
    unstep H; simp; rewrite !upd_same. split; [intros _; exact K3|]. split; [reflexivity|]. conj; congruence.
Qed.
End Inv.
