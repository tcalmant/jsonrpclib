(** The invariants that Inv1 gathers (Proofs/PoolSafety.v), except I_lock (PoolInv1), I_done (PoolInvC) and I_jcall
    (PoolInvD), and the classes of worker records they count.  Other classes are defined where they are used: body_of
    (PoolInvC), listed_pc (PoolInvF), nonclean_exit (PoolInvG), powing and retiring (PoolInvH).  holding has the worker
    with a sentinel (WSentDone), holds_any t has not. *)
From JR Require Export PoolInv1.

Definition serving (x : wst) : bool :=      (* counted in __nb_threads *)
  match wpc x with
  | WNone | WDead | WUnlock3R | WFUnlock => false
  | WFLock | WFRemove | WFNbDec => negb (wclean x)
  | _ => true
  end.
Definition holding (x : wst) : bool :=      (* has taken an item and not yet called task_done for it *)
  match wpc x with
  | WSentDone | WLock1 | WActInc | WUnlock1 | WBegin | WBody | WTaskDone => true
  | _ => false
  end.
Definition in_body (x : wst) : bool := match wpc x with WBody => true | _ => false end.
Definition held_is (t : nat) (x : wst) : bool :=
  match wheld x with Some (ITask t') => Nat.eqb t' t | _ => false end.
Definition holds_pre (t : nat) (x : wst) : bool :=   (* holds task t, body not begun *)
  match wpc x with WLock1 | WActInc | WUnlock1 | WBegin => held_is t x | _ => false end.
Definition holds_any (t : nat) (x : wst) : bool :=
  match wpc x with WLock1 | WActInc | WUnlock1 | WBegin | WBody | WTaskDone => held_is t x | _ => false end.
Definition alive (x : wst) : bool := match wpc x with WNone | WDead => false | _ => true end.

(** inclusions between the classes *)
Lemma holds_pre_any t x : holds_pre t x = true -> holds_any t x = true.
Proof. unfold holds_pre, holds_any. destruct (wpc x); auto; discriminate. Qed.
Lemma holds_any_holding t x : holds_any t x = true -> holding x = true.
Proof. unfold holds_any, holding. destruct (wpc x); auto. Qed.
Lemma holds_pre_serving t x : holds_pre t x = true -> serving x = true.
Proof. unfold holds_pre, serving. destruct (wpc x); try discriminate; reflexivity. Qed.

Fixpoint qocc (t : nat) (l : list item) : nat :=
  match l with
  | [] => 0%nat
  | i :: r => (b2n (item_eqb i (ITask t)) + qocc t r)%nat
  end.
Lemma qocc_app t l1 l2 : qocc t (l1 ++ l2) = (qocc t l1 + qocc t l2)%nat.
Proof. induction l1 as [|i r IH]; cbn [qocc app]; [reflexivity | rewrite IH; lia]. Qed.
Lemma qocc_le_length t l : (qocc t l <= length l)%nat.
Proof. induction l as [|i r IH]; cbn [qocc length]; [lia | destruct (item_eqb i (ITask t)); cbn [b2n]; lia]. Qed.

(** lifecycle labels: only the controlling thread (client 0) is ever at one of them *)
Definition lifecycle_k (k : kont) : bool := match k with KEnq => false | _ => true end.
Definition lifecycle (l : clabel) : bool :=
  match l with
  | CSLock k | CSTest k | CSNbInc k | CSTStart k _ | CSAppend k _ | CSUnlock k => lifecycle_k k
  | CSTTest | CSTClear | CSTQsize | CSTLoopA _ _ | CSTLoopB _
  | CSPTest | CSPSet | CSPLock | CSPPut _ | CSPCopy | CSPUnlock _ | CSPAlive _ | CSPJoin _ | CSPAlive2 _ | CSPDel
  | CCLLock | CCLGet | CCLDone | CCLUnlock => true
  | CJTest _ JClear | CJQJoin JClear => true
  | _ => false
  end.

(** clear() has taken an item with get_nowait() and not yet called task_done() for it: I_unf counts it *)
Definition clear_pending (s : st) : Z := match cpc (cs s 0%nat) with CCLDone => 1 | _ => 0 end.

Definition I_ctl (s : st) : Prop := forall c, c <> 0%nat -> lifecycle (cpc (cs s c)) = false.
Definition I_created (s : st) : Prop :=
  (forall w, (next_w s <= w)%nat -> ws s w = w0) /\
  (forall c k w, cpc (cs s c) = CSTStart k w -> (w < next_w s)%nat /\ ws s w = mkW WNew None false).
Definition I_cfg (s : st) : Prop := 1 <= maxT s /\ 0 <= minT s <= maxT s.
Definition I_nb (s : st) : Prop := nb_threads s = Z.of_nat (count serving (ws s) (next_w s)).
Definition I_bound (s : st) : Prop :=
  nb_threads s <= maxT s /\ forall c k, cpc (cs s c) = CSNbInc k -> nb_threads s < maxT s.
Definition I_unf (s : st) : Prop :=
  unfinished s = Z.of_nat (length (q s)) + Z.of_nat (count holding (ws s) (next_w s)) + clear_pending s.
Definition I_once (s : st) : Prop :=
  forall t, (qocc t (q s) + count (holds_pre t) (ws s) (next_w s) + tstarts s t <= 1)%nat.
Definition I_fresh (s : st) : Prop :=
  forall t, (next_task s <= t)%nat ->
            qocc t (q s) = 0%nat /\ count (holds_any t) (ws s) (next_w s) = 0%nat /\ tstarts s t = 0%nat.
Definition I_place (s : st) : Prop :=
  forall t, (t < next_task s)%nat ->
            (1 <= qocc t (q s) + count (holds_any t) (ws s) (next_w s) + b2n (settled s t))%nat.
Definition I_mon (s : st) : Prop := join_bad s = false /\ joinf_bad s = false.
Definition I_jexit (s : st) : Prop :=
  forall c, match cpc (cs s c) with
            | CJExit r => qmutex s = Some c /\ r = (unfinished s <=? 0)
            | CJWait | CJRet => qmutex s = Some c
            | _ => qmutex s <> Some c
            end.

(** per-worker well-formedness: the clean flag is clear until the worker retires, set at WUnlock3R, and either on the
    exit path; the worker holds what its label says *)
Definition held_task (x : wst) : bool := match wheld x with Some (ITask _) => true | _ => false end.
Definition held_sent (x : wst) : bool := match wheld x with Some ISent => true | _ => false end.
Definition wf_w (x : wst) : bool :=
  match wpc x with
  | WUnlock3R => wclean x
  | WFLock | WFRemove | WFNbDec | WFUnlock | WDead => true
  | WSentDone => negb (wclean x) && held_sent x
  | WLock1 | WActInc | WUnlock1 | WBegin | WBody | WTaskDone => negb (wclean x) && held_task x
  | _ => negb (wclean x)
  end.
Definition I_wf (s : st) : Prop := forall w, wf_w (ws s w) = true.

Lemma created_lt s w pc h c : I_created s -> ws s w = mkW pc h c -> pc <> WNone -> (w < next_w s)%nat.
Proof.
  intros [Hc _] E Hn. destruct (Nat.lt_ge_cases w (next_w s)) as [|Hge]; [assumption|].
  rewrite (Hc w Hge) in E. inversion E. congruence.
Qed.

Lemma cdepth_kret k : cdepth (kret k) = kdepth k.
Proof. destruct k; reflexivity. Qed.
Lemma lifecycle_kret k : lifecycle (kret k) = lifecycle_k k.
Proof. destruct k; reflexivity. Qed.
