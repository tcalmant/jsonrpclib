(** start() and stop(), part 2: the thread list holds every live worker (I_threads), what stop() knows of the
    workers while and after it joins them (I_stopjoin), a stopped pool outside stop() is quiet (I_quiet). *)
From JR Require Import PoolInvDefs PoolInvA PoolInvE.

Definition listed_pc (l : wlabel) : bool :=
  match l with WNone | WNew | WFNbDec | WFUnlock | WDead => false | _ => true end.

Definition I_threads (s : st) : Prop :=
  (forall w, listed_pc (wpc (ws s w)) = true -> In w (threads s) \/ exists c k, cpc (cs s c) = CSAppend k w) /\
  (forall w, wpc (ws s w) = WNew -> exists c k, cpc (cs s c) = CSTStart k w).

Definition after_join (l : clabel) : bool :=
  match l with
  | CSPDel | CCLLock | CCLGet | CCLDone | CCLUnlock | CJTest _ JClear | CJQJoin JClear => true
  | _ => false
  end.
Definition drained (l : clabel) : bool :=
  match l with CCLUnlock | CJTest _ JClear | CJQJoin JClear => true | _ => false end.
Definition joining (l : clabel) : option (list nat) :=
  match l with CSPUnlock ths | CSPAlive ths | CSPJoin ths | CSPAlive2 ths => Some ths | _ => None end.

Definition I_stopjoin (s : st) : Prop :=
  (forall ths, joining (ctl s) = Some ths -> forall w, alive (ws s w) = true -> In w ths) /\
  (after_join (ctl s) = true -> forall w, alive (ws s w) = false) /\
  (drained (ctl s) = true -> q s = []).

Definition I_quiet (s : st) : Prop :=
  stopped s = true -> stop_region (ctl s) = false ->
  (forall w, alive (ws s w) = false) /\ (forall i, In i (q s) -> is_task i = true).

(** a worker moves, the thread list stays: once off the list a worker is not listed again, and none goes back to WNew *)
Lemma threads_worker s S w x :
  cs S = cs s -> ws S = ws s -> threads S = threads s ->
  (listed_pc (wpc x) = true -> listed_pc (wpc (ws s w)) = true) -> wpc x <> WNew ->
  I_threads s -> I_threads (set_w S w x).
Proof.
  intros Ec Ew Et Hl Hn [T1 T2]. split; simp; rewrite Ec, Ew, ?Et; intros w'.
  all: destruct (Nat.eq_dec w' w) as [->|Hne]; [rewrite upd_same | rewrite upd_other by assumption]; auto.
  contradiction.
Qed.

Lemma at_label_other (f : nat -> cst) c y c1 l : cpc (f c1) = l -> cpc (f c) <> l -> cpc (upd f c y c1) = l.
Proof. intros E Hne. rewrite upd_other; [exact E | intros ->; contradiction]. Qed.

(** a client moves that is not between the creation of a thread and its listing *)
Lemma threads_client s S c y :
  cs S = cs s -> ws S = ws s -> threads S = threads s ->
  (forall k v, cpc (cs s c) <> CSTStart k v) -> (forall k v, cpc (cs s c) <> CSAppend k v) ->
  I_threads s -> I_threads (set_c S c y).
Proof.
  intros Ec Ew Et Hs Ha [T1 T2]. split; simp; rewrite Ec, Ew, ?Et; intros w' Hw'.
  - destruct (T1 w' Hw') as [Hin|(c1 & k1 & E)]; [left; exact Hin | right; exists c1, k1; apply at_label_other; auto].
  - destruct (T2 w' Hw') as (c1 & k1 & E). exists c1, k1. apply at_label_other; auto.
Qed.

Lemma P_threads {s t f s'} : I_ctl s -> I_stopjoin s -> I_threads s -> step s t f = Some s' -> I_threads s'.
Proof.
  intros Hctl Hsj Hth H. pose proof Hth as [T1 T2].
  destruct (step_Step H) as [w l h cl s1 Ew HS | c l p jc s1 Ec HS].
  - destruct HS.
    all: try solve [apply (threads_worker s); rewrite ?Ew; [reflexivity | reflexivity | reflexivity | exact id || discriminate | discriminate | exact Hth]].
    (* WFRemove: the worker takes itself off the list, and is no longer listed *)
    split; simp; intros w'.
    all: destruct (Nat.eq_dec w' w) as [->|Hne]; [rewrite upd_same; discriminate | rewrite upd_other by assumption].
    + intros Hw'. destruct (T1 w' Hw') as [Hin|Hap]; [left; apply in_in_remove; assumption | right; exact Hap].
    + apply T2.
  - destruct HS.
    all: try solve [apply (threads_client s); rewrite ?Ec; [reflexivity | reflexivity | reflexivity | discriminate | discriminate | exact Hth]].
    + (* CSNbInc: the creator stands at CSTStart for the new worker *)
      split; simp; intros w'.
      all: destruct (Nat.eq_dec w' (next_w s)) as [->|Hne]; [rewrite upd_same | rewrite upd_other by assumption]; try discriminate.
      * intros Hw'. destruct (T1 w' Hw') as [Hin|(c1 & k1 & E)]; [left; exact Hin | right; exists c1, k1].
        apply at_label_other; [exact E | rewrite Ec; discriminate].
      * intros _. exists c, k. rewrite upd_same. reflexivity.
      * intros Hw'. destruct (T2 w' Hw') as (c1 & k1 & E). exists c1, k1.
        apply at_label_other; [exact E | rewrite Ec; discriminate].
    + (* CSTStart: the starter stands at CSAppend for the worker it has started *)
      split; simp; intros w'.
      all: destruct (Nat.eq_dec w' v) as [->|Hne]; [rewrite upd_same | rewrite upd_other by assumption]; try discriminate.
      * intros _. right. exists c, k. rewrite upd_same. reflexivity.
      * intros Hw'. destruct (T1 w' Hw') as [Hin|(c1 & k1 & E)]; [left; exact Hin | right; exists c1, k1].
        apply at_label_other; [exact E | rewrite Ec; discriminate].
      * intros Hw'. destruct (T2 w' Hw') as (c1 & k1 & E). exists c1, k1.
        apply at_label_other; [exact E | rewrite Ec; cbn [cpc]; congruence].
    + (* CSAppend: the worker is on the list *)
      split; simp; intros w' Hw'.
      * destruct (T1 w' Hw') as [Hin|(c1 & k1 & E)]; [left; apply in_or_app; left; exact Hin|].
        destruct (Nat.eq_dec c1 c) as [->|Hne]; [|right; exists c1, k1; rewrite upd_other by assumption; exact E].
        rewrite Ec in E. injection E as _ <-. left. apply in_or_app. right. left. reflexivity.
      * destruct (T2 w' Hw') as (c1 & k1 & E). exists c1, k1.
        apply at_label_other; [exact E | rewrite Ec; discriminate].
    + (* CSPDel: stop() has joined every worker *)
      destruct Hsj as (_ & S2 & _). rewrite (ctl_only s c Hctl) in Ec by (rewrite Ec; reflexivity).
      unfold ctl in S2. rewrite Ec in S2. specialize (S2 eq_refl).
      split; simp; intros w' Hw'; exfalso; specialize (S2 w'); unfold alive in S2; destruct (wpc (ws s w')); discriminate.
Qed.

Lemma alive_listed x : alive x = true -> listed_pc (wpc x) = true \/ wpc x = WNew \/ wpc x = WFNbDec \/ wpc x = WFUnlock.
Proof. unfold alive, listed_pc. destruct (wpc x); auto; discriminate. Qed.

(** While a client holds the lock outside the lines that create a thread, every live worker is on the list: one not yet
    listed is being created, one no longer listed is at WFNbDec or WFUnlock, and its creator or itself would hold the lock. *)
Lemma locked_alive_listed s c : I_lock s -> I_threads s ->
  (0 < cdepth (cpc (cs s c)))%nat -> creating (cpc (cs s c)) = false -> forall w, alive (ws s w) = true -> In w (threads s).
Proof.
  intros Hlk [T1 T2] Hc Hnc w Ha.
  assert (Hno : forall c1, creating (cpc (cs s c1)) = true -> False).
  { intros c1 H1. destruct (Nat.eq_dec c1 c) as [->|Hne]; [congruence|]. exact (two_lockers s c1 c Hlk Hne (creating_locked _ H1) Hc). }
  destruct (alive_listed _ Ha) as [Hl|[Hn|Hn]].
  - destruct (T1 w Hl) as [Hin|(c1 & k1 & E)]; [exact Hin|]. destruct (Hno c1). rewrite E. reflexivity.
  - destruct (T2 w Hn) as (c1 & k1 & E). destruct (Hno c1). rewrite E. reflexivity.
  - destruct (wc_lockers s w c Hlk); [destruct Hn as [-> | ->]; cbn; lia | exact Hc].
Qed.

Lemma drained_after l : drained l = true -> after_join l = true.
Proof. destruct l; try discriminate; try reflexivity; destruct k; (discriminate || reflexivity). Qed.
Lemma drained_locked l : drained l = true -> (0 < cdepth l)%nat.
Proof. destruct l; try discriminate; try (cbn; lia); destruct k; (discriminate || cbn; lia). Qed.
(** stop() knows something of the workers only past CSPCopy *)
Lemma outside_join l : stop_region l = false \/ l = CSPLock -> joining l = None /\ after_join l = false.
Proof.
  intros [E| ->]; [|split; reflexivity].
  destruct l; try discriminate E; try (split; reflexivity); destruct k; (discriminate E || split; reflexivity).
Qed.

Lemma stopjoin_outside s : joining (ctl s) = None -> after_join (ctl s) = false -> I_stopjoin s.
Proof.
  intros Ej Ea. split; [rewrite Ej; discriminate | split; [rewrite Ea; discriminate|]].
  intros D. rewrite (drained_after _ D) in Ea. discriminate.
Qed.

(** threads are created only while the pool runs or stop() waits for the lock: stop() is not past CSPCopy *)
Lemma stopjoin_creating s c : I_flag s -> I_nocreate s -> creating (cpc (cs s c)) = true -> I_stopjoin s.
Proof.
  intros (F1 & _) Hnc Hc. destruct (outside_join (ctl s)) as [Ej Ea]; [|exact (stopjoin_outside s Ej Ea)].
  destruct (Hnc c Hc) as [Hst|E]; [left | right; exact E].
  destruct (stop_region (ctl s)); [|reflexivity]. destruct (F1 eq_refl) as [Hst' _]. congruence.
Qed.

Lemma stopjoin_frame s s' :
  (forall w, alive (ws s' w) = true -> alive (ws s w) = true) ->
  joining (ctl s') = joining (ctl s) -> after_join (ctl s') = after_join (ctl s) ->
  (drained (ctl s') = true -> drained (ctl s) = true /\ q s' = q s) ->
  I_stopjoin s -> I_stopjoin s'.
Proof.
  intros Ha Ej Ea Hd (S1 & S2 & S3). split; [|split].
  - rewrite Ej. intros ths Hj w Hw. exact (S1 ths Hj w (Ha w Hw)).
  - rewrite Ea. intros Haj w. destruct (alive (ws s' w)) eqn:E; [|reflexivity].
    specialize (Ha w E). rewrite (S2 Haj w) in Ha. discriminate.
  - intros D. destruct (Hd D) as [D' ->]. exact (S3 D').
Qed.

Lemma stopjoin_spalive s ths : (forall w, alive (ws s w) = true -> In w ths) -> ctl s = spalive ths -> I_stopjoin s.
Proof.
  intros Ha E. unfold I_stopjoin. rewrite E. destruct ths as [|v r]; cbn [spalive]; (split; [|split]); cbn; try discriminate.
  - intros _ w. destruct (alive (ws s w)) eqn:Ew; [destruct (Ha w Ew) | reflexivity].
  - intros ths Hj. injection Hj as <-. exact Ha.
Qed.

Lemma P_stopjoin {s t f s'} :
  I_ctl s -> I_lock s -> I_threads s -> I_stopjoin s -> I_flag s' -> I_nocreate s' -> step s t f = Some s' -> I_stopjoin s'.
Proof.
  intros Hctl Hlk Hth Hsj Hfl' Hnc' H. pose proof Hsj as (S1 & S2 & S3).
  destruct (step_Step H) as [w l h cl s1 Ew HS | c l p jc s1 Ec HS].
  - (* a worker that moves is alive: stop() has not joined it yet; the others and the controller stay *)
    assert (Ha : alive (ws s w) = true) by (rewrite Ew; exact (WStep_alive HS)).
    assert (Hnj : after_join (ctl s) = false).
    { destruct (after_join (ctl s)) eqn:E; [|reflexivity]. rewrite (S2 eq_refl w) in Ha. discriminate. }
    destruct (WStep_frame HS) as (Ecs & _).
    apply (stopjoin_frame s); unfold ctl in *; rewrite ?Ecs; [|reflexivity|reflexivity| |exact Hsj].
    + intros w'. destruct (Nat.eq_dec w' w) as [->|Hne]; [intros _; exact Ha | rewrite (WStep_others w' HS Hne); exact id].
    + intros D. rewrite (drained_after _ D) in Hnj. discriminate.
  - destruct (Nat.eq_dec c 0) as [->|Hc0].
    2:{ (* a client other than the controller: in enqueue(), join() or __start_thread() *)
        specialize (Hctl c Hc0). rewrite Ec in Hctl.
        destruct HS; try discriminate Hctl.
        all: try solve [apply (stopjoin_frame s); rewrite ?ctl_set_other by assumption;
                        [intros w'; exact id | reflexivity | reflexivity | intros D; split; [exact D | reflexivity] | exact Hsj]].
        + (* CEPut: the enqueuer holds the lock, so stop() is not where it holds it with the queue drained *)
          apply (stopjoin_frame s); rewrite ?ctl_set_other by assumption; [intros w'; exact id | reflexivity | reflexivity | | exact Hsj].
          intros D. exfalso. apply (two_lockers s c 0%nat Hlk Hc0); [rewrite Ec; cbn; lia | exact (drained_locked _ D)].
        + (* CSNbInc *) apply (stopjoin_creating _ c Hfl' Hnc'). simp. rewrite upd_same. reflexivity.
        + (* CSTStart *) apply (stopjoin_creating _ c Hfl' Hnc'). simp. rewrite upd_same. reflexivity. }
    assert (E0 : ctl s = l) by (unfold ctl; rewrite Ec; reflexivity).
    destruct HS.
    (* the controller arrives outside stop(), or before CSPCopy *)
    all: try solve [apply stopjoin_outside; rewrite ctl_set_c; cbn [cpc]; try label_cases; reflexivity].
    (* inside stop(): the workers stay, and so does what stop() has established *)
    all: try solve [apply (stopjoin_frame s); rewrite ?ctl_set_c, ?E0; cbn [cpc];
                    [intros w'; exact id | reflexivity | reflexivity | (discriminate || (intros D; split; [exact D | reflexivity])) | exact Hsj]].
    all: rewrite E0 in *.
    + (* CSPCopy: stop() holds the lock *)
      split; [|split]; rewrite ctl_set_c; cbn; [|discriminate|discriminate].
      intros ths Hj. injection Hj as <-. apply (locked_alive_listed s 0%nat Hlk Hth); rewrite Ec; [cbn; lia | reflexivity].
    + (* CSPUnlock *) apply (stopjoin_spalive _ ths); [exact (S1 ths eq_refl) | apply ctl_set_c].
    + (* CSPAlive [] *) apply (stopjoin_spalive _ []); [exact (S1 [] eq_refl) | apply ctl_set_c].
    + (* CSPAlive, the first of the list is dead *)
      apply (stopjoin_spalive _ r); [|apply ctl_set_c]. intros w' Hw'. simp.
      destruct (S1 _ eq_refl w' Hw') as [<-|Hin]; [|exact Hin]. unfold alive in Hw'. rewrite Hv in Hw'. discriminate.
    + (* CSPJoin [] *) apply (stopjoin_spalive _ []); [exact (S1 [] eq_refl) | apply ctl_set_c].
    + (* CCLGet finds the queue empty *)
      split; [|split]; rewrite ctl_set_c; cbn; [discriminate | intros _; exact (S2 eq_refl) | intros _; exact Hq].
    + (* CJTest, work outstanding: join goes on, in clear() or in the controller's own call *)
      destruct k.
      * apply stopjoin_outside; rewrite ctl_set_c; destruct timed; reflexivity.
      * apply (stopjoin_frame s); rewrite ?ctl_set_c, ?E0; cbn [cpc]; [intros w'; exact id | reflexivity | reflexivity | intros D; split; [exact D | reflexivity] | exact Hsj].
Qed.

Lemma quiet_vacuous s : stopped s = false \/ stop_region (ctl s) = true -> I_quiet s.
Proof. intros [E|E] Hst Hr; congruence. Qed.
Lemma quiet_creating s c : I_nocreate s -> creating (cpc (cs s c)) = true -> I_quiet s.
Proof. intros Hnc Hc. apply quiet_vacuous. destruct (Hnc c Hc) as [E|E]; [left; exact E | right; rewrite E; reflexivity]. Qed.

(** a client moves without writing the stop flag, leaving stop() or writing a worker, and puts nothing but tasks: if the
    pool is stopped outside stop() now, it was *)
Lemma quiet_client s S c y :
  cs S = cs s -> stopped S = stopped s -> (stop_region (cpc y) = false -> stop_region (cpc (cs s c)) = false) ->
  ws S = ws s -> (forall i, In i (q S) -> In i (q s) \/ is_task i = true) ->
  I_quiet s -> I_quiet (set_c S c y).
Proof.
  intros Ecs Est Hy Ews Hqs Hq Hst Hr. simp. rewrite Est in Hst. rewrite Ews.
  destruct (Hq Hst) as [Hd Hk]; [|split; [exact Hd | intros i Hi; destruct (Hqs i Hi); auto]].
  destruct (Nat.eq_dec c 0) as [->|Hc0]; [rewrite ctl_set_c in Hr; exact (Hy Hr)|].
  rewrite ctl_set_other in Hr by assumption. unfold ctl in *. rewrite <- Ecs. exact Hr.
Qed.

Lemma P_quiet {s t f s'} :
  I_ctl s -> I_stopjoin s -> I_quiet s -> I_nocreate s' -> step s t f = Some s' -> I_quiet s'.
Proof.
  intros Hctl (_ & S2 & S3) Hq Hnc' H.
  destruct (step_Step H) as [w l h cl s1 Ew HS | c l p jc s1 Ec HS].
  - (* a worker that moves is alive: the pool is not quiet *)
    destruct (WStep_frame HS) as (Ecs & Est & _). unfold I_quiet, ctl. rewrite Ecs, Est. intros Hst Hr. exfalso.
    destruct (Hq Hst Hr) as [Hd _]. specialize (Hd w). rewrite Ew, (WStep_alive HS) in Hd. discriminate.
  - destruct HS.
    all: try solve [apply (quiet_client s); rewrite ?Ec; cbn [cpc];
                    [reflexivity | reflexivity | try label_cases; (reflexivity || discriminate) | reflexivity | intros i Hi; left; exact Hi | exact Hq]].
    (* the controller arrives inside stop() *)
    all: try solve [rewrite (ctl_only s c Hctl) by (rewrite Ec; reflexivity); apply quiet_vacuous; right; rewrite ctl_set_c; cbn [cpc];
                    try label_cases; reflexivity].
    + (* CEPut: what is put is a task *)
      apply (quiet_client s); rewrite ?Ec; [reflexivity | reflexivity | reflexivity | reflexivity | | exact Hq].
      intros i Hi. simp. apply in_app_or in Hi as [Hi|[<-|[]]]; [left; exact Hi | right; reflexivity].
    + (* CSNbInc: threads are created only while the pool runs or stop() waits for the lock *)
      apply (quiet_creating _ c Hnc'). simp. rewrite upd_same. reflexivity.
    + (* CSTStart *) apply (quiet_creating _ c Hnc'). simp. rewrite upd_same. reflexivity.
    + (* CSTClear: the pool runs *)
      apply quiet_vacuous. left. reflexivity.
    + (* CCLUnlock: stop() returns; it has joined every worker and drained the queue *)
      rewrite (ctl_only s c Hctl) in * by (rewrite Ec; reflexivity). unfold ctl in S2, S3. rewrite Ec in S2, S3.
      intros _ _. simp. split; [exact (S2 eq_refl) | intros i Hi; rewrite (S3 eq_refl) in Hi; destruct Hi].
Qed.
