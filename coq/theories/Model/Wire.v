(** * Wire — model of the byte-level framing of JSON-RPC messages (property C17).

    Mirrors, function by function:
      - jsonrpclib/utils.py:79-93            [to_bytes], [from_bytes] (Python 3 branch) over a concrete UTF-8 codec
      - jsonrpclib/jsonrpc.py:201-235        [JSONTarget.__init__/feed/close]   -> [target_init], [target_feed], [target_close]
      - xmlrpc.client.Transport.parse_response (stdlib, modelled)           -> [parse_response]
      - jsonrpclib/jsonrpc.py:285-330,388-412 [emit_additional_headers], [send_content] -> [emit_additional], [send_content]
      - jsonrpclib/jsonrpc.py:562-602        [ServerProxy.__init__] scheme / handler part -> [proxy_init]
      - jsonrpclib/jsonrpc.py:665-673        [ServerProxy._run_request] path + query      -> [request_target]
      - jsonrpclib/SimpleJSONRPCServer.py:476-488  body loop of [do_POST] (REPAIRED code: raw chunks are joined
                                               and decoded once)                         -> [body_loop], [server_body]
      - jsonrpclib/SimpleJSONRPCServer.py:490-532  rest of [do_POST]: dispatch, status, reply headers -> [do_post]
      - jsonrpclib/SimpleJSONRPCServer.py:709-725  [CGIJSONRPCRequestHandler.handle_jsonrpc]         -> [cgi_reply]

    This model has its own data types: a Python [str] is the list of its code points, a [bytes] object the
    list of its byte values.  Definitions only; proofs are in Proofs/WireProofs.v. *)

From JR Require Export PyOps.
From Coq Require Export NArith.
From Coq Require Import DecimalString Decimal.
Local Open Scope N_scope.

Definition text := list N.       (* code points of a Python str *)
Definition bytes := list N.      (* byte values (< 256) of a Python bytes object *)

(** ** UTF-8, as CPython's strict codec *)

(** what [str.encode("UTF-8")] accepts: Unicode scalar values (no surrogates) *)
Definition is_scalar (c : N) : bool :=
  (c <? 55296) || ((57344 <=? c) && (c <=? 1114111)).

Definition enc1 (c : N) : bytes :=
  if c <? 128 then [c]
  else if c <? 2048 then [192 + c / 64; 128 + c mod 64]
  else if c <? 65536 then [224 + c / 64 / 64; 128 + (c / 64) mod 64; 128 + c mod 64]
  else [240 + c / 64 / 64 / 64; 128 + (c / 64 / 64) mod 64; 128 + (c / 64) mod 64; 128 + c mod 64].

Definition utf8_enc (s : text) : bytes := flat_map enc1 s.

Definition enc_err : exn := EOther "UnicodeEncodeError".
Definition dec_err : exn := EOther "UnicodeDecodeError".

(** continuation byte 10xxxxxx *)
Definition contb (b : N) : bool := (128 <=? b) && (b <? 192).

Definition cons_ok (c : N) (r : res text) : res text :=
  match r with Ok s => Ok (c :: s) | Raise e => Raise e end.

(** strict decoder: rejects stray continuation bytes, overlong forms, surrogates, code points above
    U+10FFFF, lead bytes F5..FF and truncated sequences *)
Fixpoint utf8_dec (b : bytes) : res text :=
  match b with
  | [] => Ok []
  | b0 :: r0 =>
      if b0 <? 128 then cons_ok b0 (utf8_dec r0)
      else if b0 <? 194 then Raise dec_err
      else if b0 <? 224 then
        match r0 with
        | b1 :: r1 =>
            if contb b1 then cons_ok ((b0 - 192) * 64 + (b1 - 128)) (utf8_dec r1) else Raise dec_err
        | _ => Raise dec_err
        end
      else if b0 <? 240 then
        match r0 with
        | b1 :: b2 :: r2 =>
            let c := (b0 - 224) * 4096 + (b1 - 128) * 64 + (b2 - 128) in
            if contb b1 && contb b2 && (2048 <=? c) && negb ((55296 <=? c) && (c <=? 57343))
            then cons_ok c (utf8_dec r2) else Raise dec_err
        | _ => Raise dec_err
        end
      else if b0 <? 245 then
        match r0 with
        | b1 :: b2 :: b3 :: r3 =>
            let c := (b0 - 240) * 262144 + (b1 - 128) * 4096 + (b2 - 128) * 64 + (b3 - 128) in
            if contb b1 && contb b2 && contb b3 && (65536 <=? c) && (c <=? 1114111)
            then cons_ok c (utf8_dec r3) else Raise dec_err
        | _ => Raise dec_err
        end
      else Raise dec_err
  end.

(** ** utils.to_bytes / utils.from_bytes (Python 3 branch) *)

Inductive pydata := PStr (s : text) | PBytes (b : bytes).

(** [if type(string) is bytes: return string ; return bytes(string, "UTF-8")] *)
Definition to_bytes (d : pydata) : res bytes :=
  match d with
  | PBytes b => Ok b
  | PStr s => if forallb is_scalar s then Ok (utf8_enc s) else Raise enc_err
  end.

(** [if type(data) is str: return data ; return str(data, "UTF-8")] *)
Definition from_bytes (d : pydata) : res text :=
  match d with
  | PStr s => Ok s
  | PBytes b => utf8_dec b
  end.

Definition blen (b : bytes) : N := N.of_nat (length b).

(** ** decimal rendering of lengths: [str(len(body))] *)
Definition str_of_N (n : N) : string := NilEmpty.string_of_uint (N.to_uint n).
Definition N_of_str (s : string) : option N := option_map N.of_uint (NilEmpty.uint_of_string s).

(** ** Client: JSONTarget (jsonrpc.py:201-235).  [self.data] is the list of raw chunks. *)

Definition target_init : list bytes := [].                                        (* self.data = [] *)
Definition target_feed (data : list bytes) (chunk : bytes) : list bytes := (data ++ [chunk])%list.   (* self.data.append(data) *)

(** [close]: empty buffer -> ""; else join the raw chunks and convert the whole once; when the conversion
    fails (ValueError) the joined bytes are passed through unchanged *)
Definition target_close (data : list bytes) : pydata :=
  match data with
  | [] => PStr []
  | _ => let joined := concat data in
         match from_bytes (PBytes joined) with
         | Ok s => PStr s
         | Raise _ => PBytes joined
         end
  end.

(** the same conversion applied to a whole body received at once *)
Definition decode_whole (b : bytes) : pydata :=
  match from_bytes (PBytes b) with Ok s => PStr s | Raise _ => PBytes b end.

(** the first [n] elements / what follows them *)
Fixpoint takeN {A} (n : N) (l : list A) : list A :=
  match l with
  | [] => []
  | x :: r => if n =? 0 then [] else x :: takeN (N.pred n) r
  end.
Fixpoint dropN {A} (n : N) (l : list A) : list A :=
  match l with
  | [] => []
  | x :: r => if n =? 0 then l else dropN (N.pred n) r
  end.

(** splitting a byte string into successive reads: [stream.read(amt)] returns at most [amt] bytes, at most the
    next scripted size (a script entry 0 counts as 1: a read never returns nothing before the end), and
    whatever is left at the end; the loop [while data := stream.read(amt)] stops at the first empty read.
    [fuel] is the stream itself (every read consumes at least one byte). *)
Fixpoint read_all (fuel : bytes) (amt : N) (sizes : list N) (s : bytes) : list bytes :=
  match s, fuel with
  | [], _ => []
  | _, [] => []            (* unreachable when [length s <= length fuel] *)
  | _, _ :: fuel' =>
      let want := match sizes with [] => amt | z :: _ => N.min amt (N.max 1 z) end in
      let want := N.max 1 want in
      takeN want s :: read_all fuel' amt (tl sizes) (dropN want s)
  end.

(** xmlrpc.client.Transport.parse_response, with the transport's parser/target:
    [stream] is the body after the optional gzip layer ([GzipDecodedResponse] raises when the data is not gzip);
    [while data := stream.read(1024): p.feed(data)] ; [return u.close()] *)
Definition parse_stream (sizes : list N) (stream : res bytes) : res pydata :=
  do s <- stream;
  Ok (target_close (fold_left target_feed (read_all s 1024 sizes s) target_init)).

Section Gzip.
  Variable gunz : bytes -> res bytes.       (* gzip.GzipFile(...).read: the decompressed body, or an error *)

  Definition parse_response (content_encoding_gzip : bool) (sizes : list N) (wire : bytes) : res pydata :=
    parse_stream sizes (if content_encoding_gzip then gunz wire else Ok wire).
End Gzip.

(** ** Header lists *)

Definition header := (string * string)%type.

Definition hdr_values (name : string) (hs : list header) : list string :=
  map snd (filter (fun h => String.eqb (ascii_lower (fst h)) name) hs).

(** TransportMixIn.emit_additional_headers on the merged custom-header dictionary: keys are lower-cased and
    the read-only names are removed *)
Definition readonly (k : string) : bool := String.eqb k "content-length" || String.eqb k "content-type".
Definition emit_additional (custom : list header) : list header :=
  filter (fun h => negb (readonly (fst h))) (map (fun h => (ascii_lower (fst h), snd h)) custom).

(** TransportMixIn.send_content: the header lines put after the request line and the bytes sent *)
Definition send_content (content_type user_agent : string) (custom : list header) (body : pydata)
  : res (list header * bytes) :=
  do b <- to_bytes body;                                                   (* request_body = utils.to_bytes(request_body) *)
  let add := emit_additional custom in
  Ok (([("Content-Type", content_type); ("Content-Length", str_of_N (blen b))]
         ++ add
         ++ (if existsb (fun h => String.eqb (fst h) "user-agent") add then [] else [("User-Agent", user_agent)]))%list,
      b).

(** ** ServerProxy.__init__ : scheme and handler (jsonrpc.py:562-602) *)

Fixpoint drop_chars (n : nat) (s : string) : string :=
  match n, s with
  | S k, String _ r => drop_chars k r
  | _, _ => s
  end.

Inductive transport_kind := THttp | TSafe | TUnix | TCustom.

Record proxy := { px_transport : transport_kind; px_handler : string; px_query : string }.

(** [scheme], [path], [query] are the components [urlparse] returned; [custom_transport] says whether the
    caller passed [transport=] *)
Definition proxy_init (scheme path query : string) (custom_transport : bool) : res proxy :=
  let use_unix := prefixb "unix+" scheme in
  let schema := if use_unix then drop_chars 5 scheme else scheme in
  if negb (String.eqb schema "http" || String.eqb schema "https") then Raise EOS        (* raise IOError("Unsupported JSON-RPC protocol.") *)
  else
    let handler := if use_unix then "/"%string else if String.eqb path "" then "/"%string else path in
    let mk t := Ok {| px_transport := t; px_handler := handler; px_query := query |} in
    if custom_transport then mk TCustom
    else if use_unix then (if String.eqb schema "http" then mk TUnix else Raise EOS)   (* "Unhandled combination" *)
    else if String.eqb schema "https" then mk TSafe
    else mk THttp.

(** the schemes of the property statement (a domain predicate, not code): http, https, unix+http, and
    unix+https only when the caller supplies the transport *)
Definition accepted (scheme : string) (custom_transport : bool) : bool :=
  String.eqb scheme "http" || String.eqb scheme "https" || String.eqb scheme "unix+http"
  || (String.eqb scheme "unix+https" && custom_transport).

(** ServerProxy._run_request: the request target handed to [transport.request] *)
Definition request_target (p : proxy) : string :=
  if String.eqb (px_query p) "" then px_handler p
  else (px_handler p ++ "?" ++ px_query p)%string.

(** ** Server: the body loop of do_POST (REPAIRED code) *)

(** [rfile]: the bytes still to come and the scripted sizes of the next reads.  [read(k)] returns at most [k]
    bytes, at most the scripted size (short read; a scripted 0 is an empty read, which the loop takes as
    end of file), and at most what is left. *)
Definition rfile := (bytes * list N)%type.

Definition rfile_read (k : N) (f : rfile) : bytes * rfile :=
  let '(s, caps) := f in
  let n := match caps with [] => k | c :: _ => N.min k c end in
  (takeN n s, (dropN n s, tl caps)).

(** [while size_remaining: chunk_size = min(size_remaining, max_chunk_size); raw_chunk = self.rfile.read(chunk_size);
     if not raw_chunk: break; chunks.append(raw_chunk); size_remaining -= len(raw_chunk)]
    [fuel]: any list longer than the stream; running out of it is a distinct error (never happens, see
    [body_loop_reads] in Proofs/WireProofs.v). *)
Fixpoint body_loop (fuel : bytes) (M rem : N) (f : rfile) (chunks : list bytes) : res (list bytes) :=
  if rem =? 0 then Ok chunks
  else match fuel with
       | [] => Raise EUnmodelled
       | _ :: fuel' =>
           let '(raw, f') := rfile_read (N.min rem M) f in
           match raw with
           | [] => Ok chunks
           | _ => body_loop fuel' M (rem - blen raw) f' (chunks ++ [raw])%list
           end
       end.

(** [data = utils.from_bytes(b"".join(chunks))] *)
Definition server_body (M clen : N) (f : rfile) : res text :=
  do chunks <- body_loop (0 :: fst f) M clen f [];
  from_bytes (PBytes (concat chunks)).

(** the chunk size of the code: [max_chunk_size = 10 * 1024 * 1024] *)
Definition max_chunk_size : N := 10 * 1024 * 1024.

(** ** Server: do_POST as a whole (path valid, no request content-encoding).
    [dispatch] stands for [self.server._marshaled_dispatch] (returns the reply text, or None);
    [fault_text] for [Fault(-32603, ...).response()] of the error path. *)
Record http_reply := { rp_status : N; rp_headers : list header; rp_body : bytes }.

Definition reply_of (status : N) (content_type : string) (response : text) : res http_reply :=
  do b <- to_bytes (PStr response);                                  (* response = utils.to_bytes(response) *)
  Ok {| rp_status := status;
        rp_headers := [("Content-type", content_type); ("Content-length", str_of_N (blen b))];
        rp_body := b |}.

Definition do_post (M : N) (content_type : string) (clen : N) (f : rfile)
           (dispatch : text -> res (option text)) (fault_text : text) : option text * res http_reply :=
  match server_body M clen f with
  | Ok data =>
      match dispatch data with
      | Ok (Some r) => (Some data, reply_of 200 content_type r)
      | Ok None => (Some data, reply_of 200 content_type [])             (* if response is None: response = "" *)
      | Raise _ => (Some data, reply_of 500 content_type fault_text)
      end
  | Raise _ => (None, reply_of 500 content_type fault_text)              (* except: send_response(500) *)
  end.

(** ** CGI: handle_jsonrpc (encoding "UTF-8"): the header lines printed and the bytes written *)
Definition cgi_reply (content_type : string) (response : text) : res (list header * bytes) :=
  do b <- to_bytes (PStr response);                                  (* response.encode(self.encoding) *)
  Ok ([("Content-Type", content_type); ("Content-Length", str_of_N (blen b))], b).

(** ** Observation interface for the correspondence stage *)

Definition bytes_eqb (a b : bytes) : bool := list_eqb N.eqb a b.
Definition exn_same (a b : exn) : bool :=
  match a, b with
  | EOther x, EOther y => String.eqb x y
  | EOS, EOS | EValue, EValue | EType, EType => true
  | _, _ => false
  end.
Definition rbytes_eqb (a b : res bytes) : bool :=
  match a, b with Ok x, Ok y => bytes_eqb x y | Raise x, Raise y => exn_same x y | _, _ => false end.
Definition pydata_eqb (a b : pydata) : bool :=
  match a, b with PStr x, PStr y | PBytes x, PBytes y => bytes_eqb x y | _, _ => false end.
Definition rpydata_eqb (a b : res pydata) : bool :=
  match a, b with Ok x, Ok y => pydata_eqb x y | Raise _, Raise _ => true | _, _ => false end.
Definition strs_eqb (a b : list string) : bool := list_eqb String.eqb a b.

(** the two framing headers of a header list: values of Content-Type, values of Content-Length *)
Definition framing (hs : list header) : list string * list string :=
  (hdr_values "content-type" hs, hdr_values "content-length" hs).
Definition framing_eqb (a b : list string * list string) : bool :=
  strs_eqb (fst a) (fst b) && strs_eqb (snd a) (snd b).

(** codec stream: [CEnc s o] : to_bytes(s) observed as [o];  [CDec b o] : from_bytes(b) observed as [o] *)
Inductive codec_case :=
| CEnc (s : text) (o : res bytes) | CDec (b : bytes) (o : res text)
| CEncB (b : bytes) (o : res bytes)        (* to_bytes of a bytes object *)
| CDecS (s : text) (o : res text).         (* from_bytes of a str *)
Definition codec_check (c : codec_case) : bool :=
  match c with
  | CEnc s o => rbytes_eqb (to_bytes (PStr s)) o
  | CDec b o => rbytes_eqb (from_bytes (PBytes b)) o
  | CEncB b o => rbytes_eqb (to_bytes (PBytes b)) o
  | CDecS s o => rbytes_eqb (from_bytes (PStr s)) o
  end.

(** reassembly stream: chunks fed to the parser/target, observed result of close() *)
Definition feed_check (c : list bytes * pydata) : bool :=
  pydata_eqb (target_close (fold_left target_feed (fst c) target_init)) (snd c).

(** parse_response stream: the body after the gzip layer (as the real gzip module produced it, or its
    failure), the scripted read sizes, and the observed result *)
Definition parse_check (c : res bytes * list N * res pydata) : bool :=
  let '(stream, sizes, o) := c in rpydata_eqb (parse_stream sizes stream) o.

(** client request stream: configuration, URL components, custom headers, body; observed outcome:
    rejected at construction, failure while sending (encoding error), or (target, framing headers, bytes) *)
Inductive client_obs :=
| CRejected
| CSendRaise (e : exn)
| CSent (target : string) (fr : list string * list string) (body : bytes).

Definition client_run (ct ua scheme path query : string) (custom_transport : bool) (custom : list header)
           (body : pydata) : client_obs :=
  match proxy_init scheme path query custom_transport with
  | Raise _ => CRejected
  | Ok p =>
      match send_content ct ua custom body with
      | Raise e => CSendRaise e
      | Ok (hs, b) => CSent (request_target p) (framing hs) b
      end
  end.

Definition client_obs_eqb (a b : client_obs) : bool :=
  match a, b with
  | CRejected, CRejected => true
  | CSendRaise x, CSendRaise y => exn_same x y
  | CSent t f b, CSent t' f' b' => String.eqb t t' && framing_eqb f f' && bytes_eqb b b'
  | _, _ => false
  end.

Definition client_check (c : string * string * string * string * string * bool * list header * pydata * client_obs) : bool :=
  let '(ct, ua, scheme, path, query, tr, custom, body, o) := c in
  client_obs_eqb (client_run ct ua scheme path query tr custom body) o.

(** server stream: chunk size, content type, declared length, stream, read script, what the dispatcher
    returns (None | text | raises), the body of the fault reply; observed: text handed to the dispatcher
    (None when it was not called), status, framing headers, reply bytes *)
Inductive disp := DNone | DText (r : text) | DRaise.
Definition server_obs := (option text * N * (list string * list string) * bytes)%type.

Definition server_run (M : N) (ct : string) (clen : N) (s : bytes) (caps : list N) (d : disp) (fault : text)
  : option server_obs :=
  let dispatch := fun _ : text => match d with DNone => Ok None | DText r => Ok (Some r) | DRaise => Raise (EOther "dispatch") end in
  match do_post M ct clen (s, caps) dispatch fault with
  | (seen, Ok r) => Some (seen, rp_status r, framing (rp_headers r), rp_body r)
  | (_, Raise _) => None
  end.

Definition otext_eqb (a b : option text) : bool :=
  match a, b with Some x, Some y => bytes_eqb x y | None, None => true | _, _ => false end.

Definition server_check (c : N * string * N * bytes * list N * disp * text * option server_obs) : bool :=
  let '(M, ct, clen, s, caps, d, fault, o) := c in
  match server_run M ct clen s caps d fault, o with
  | Some (seen, st, fr, b), Some (seen', st', fr', b') =>
      otext_eqb seen seen' && N.eqb st st' && framing_eqb fr fr' && bytes_eqb b b'
  | None, None => true
  | _, _ => false
  end.

(** big-body server cases are described by construction: [pre] bytes 'a', one character, [post] bytes 'b';
    the implementation's observation is whether the dispatcher saw exactly that text *)
Definition built_body (pre : N) (c : N) (post : N) : text :=
  N.iter pre (cons 97) (c :: N.iter post (cons 98) []).

(** run-length literal used by generated case files: [n] copies of [x] *)
Definition rp (x n : N) : list N := N.iter n (cons x) [].

Definition server_big_check (c : N * N * N * N * list N * bool) : bool :=
  let '(M, pre, ch, post, caps, seen_ok) := c in
  let t := built_body pre ch post in
  let b := utf8_enc t in
  match server_body M (blen b) (b, caps) with
  | Ok data => Bool.eqb seen_ok true && bytes_eqb data t
  | Raise _ => Bool.eqb seen_ok false
  end.

(** CGI stream *)
Definition cgi_check (c : string * text * option ((list string * list string) * bytes)) : bool :=
  let '(ct, r, o) := c in
  match cgi_reply ct r, o with
  | Ok (hs, b), Some (fr, b') => framing_eqb (framing hs) fr && bytes_eqb b b'
  | Raise _, None => true
  | _, _ => false
  end.
