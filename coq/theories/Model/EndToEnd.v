(** * EndToEnd — one remote call from ServerProxy to the registered callable and back (property C01).

    Composes, at the level of JSON VALUES, the models of the pieces:
      - [call_params]     _Method.__call__ (jsonrpc.py: `if args: send(name, args) else: send(name, kwargs)`)
                          MultiCallMethod.__call__ (`if kwargs: params = kwargs else: params = args`)
      - [Payload.dump]    jsonrpc.dump / Payload.request / Payload.notify            (Model/Payload.v, C14)
      - [wire]            json.dumps on one side, json.loads on the other: a JSON-serialisable value arrives
                          normalised (tuples become lists), anything else makes json.dumps raise TypeError
      - [marshaled_dispatch]  SimpleJSONRPCDispatcher._marshaled_dispatch            (Model/Dispatch.v, C02-C05)
      - [proxy_result]    check_for_errors + response["result"]                      (Model/Client.v, C06)
      - the History object: ServerProxy._run_request appends the request text before the exchange and
        the response text after it (nothing when the transport raised)
      - MultiCall._request: "[ " + ",".join(job.request() ...) + " ]", one _run_request, MultiCallIterator

    Not in this model (each is another property's model, tied to the code by that property's check):
    the HTTP framing and the three transports / server classes (C17, C12: a byte-faithful transport is the
    identity on texts), the class translator on beans (C07; here payloads are plain data free of
    "__jsonclass__", on which jsonclass.dump is [convert] and jsonclass.load the identity, C15), the thread
    pool of the pooled server (C09-C12).  Definitions only; proofs in Proofs/EndToEndProofs.v. *)
From Coq Require Import List ZArith String Bool.
From JR Require Import Val PyOps Payload Client Dispatch.
Import ListNotations.
Open Scope string_scope.

(** ** The client *)
Record client := mkClient {
  cl_cfg : pcfg;           (* the proxy's Config: version, use_jsonclass *)
  cl_version : val         (* the version argument of ServerProxy(version=...), None when not given.  The fallback
                              `self.__version = version or config.version` of ServerProxy.__init__ is not modelled
                              here: dump makes the same choice (`if not version: version = config.version`) *)
}.

Inductive call_args := Positional (l : list val) | Keyword (m : list (val * val)).

(** _Method.__call__: `if args: send(name, args) else: send(name, kwargs)` *)
Definition call_params (a : call_args) : val :=
  match a with
  | Positional [] => VDict []
  | Positional l => VTuple l
  | Keyword m => VDict m
  end.

(** MultiCallMethod.__call__: `if kwargs: params = kwargs else: params = args` *)
Definition job_params (a : call_args) : val :=
  match a with
  | Positional l => VTuple l
  | Keyword [] => VTuple []
  | Keyword m => VDict m
  end.

(** a "params" value after the trip through JSON: tuples have become lists *)
Definition received (p : val) : val := norm p.

(** json.dumps then json.loads *)
Definition wire (v : val) : res val := if dumpable v then Ok (norm v) else Raise EType.

(** History: texts of the requests sent and of the responses received, oldest first; a text is
    represented by the value it parses to, the empty text by [None] *)
Record history := mkHist { h_requests : list val; h_responses : list (option val) }.
Definition add_request (h : history) (r : val) : history := mkHist (h_requests h ++ [r]) (h_responses h).
Definition add_response (h : history) (r : option val) : history := mkHist (h_requests h) (h_responses h ++ [r]).

Definition transport_error : exn := ETransport "HOST/handler" 500.

Section E2E.
  Variable body : cid -> val -> outcome.
  Variable sigs : cid -> signature.
  Variable fresh : nat -> str.          (* str(uuid.uuid4()) *)
  Variable dv : val.                    (* jsonrpclib.config.DEFAULT.version *)

  (** the server: its configuration's form, registry, notification pool, use_jsonclass, custom dispatch function *)
  Variable srvf : form.
  Variable srv : server.
  Variable dm : option cid.

  (** jsonclass.dump / jsonclass.load on descriptor-free plain data *)
  Definition jc (v : val) : res val := convert v.
  Definition jl (v : val) : res val := Ok v.

  (** the reply text as the client parses it: [None] = empty body *)
  Definition reply_value (r : reply) : option val :=
    match r with
    | REmpty => None
    | ROne o => Some (norm o)
    | RMany os => Some (VList (map norm os))
    end.

  (** ServerProxy._run_request over a byte-faithful transport and the dispatcher: the parsed response
      (None for an empty body), the server-side log, the history afterwards.  An exception escaping the
      dispatcher is answered 500 by do_POST and raised as TransportError by the transport: the response
      is then not recorded. *)
  Definition run_request (c : client) (w : val) (h : history) : res val * list event * history :=
    let h1 := add_request h w in
    match marshaled_dispatch body sigs srvf srv dm (PValue w) with
    | Raise _ => (Raise transport_error, snd (unmarshaled_dispatch body sigs srvf srv dm w), h1)   (* the calls did happen *)
    | Ok (r, log) =>
        let h2 := add_response h1 (reply_value r) in
        match reply_value r with
        | None => (Ok VNone, log, h2)                                            (* `if not response: return None` *)
        | Some v => (Payload.load jl (cl_cfg c) v, log, h2)                      (* loads(response, self._config) *)
        end
    end.

  (** ServerProxy._request(methodname, params): dumps, _run_request, check_for_errors, ["result"] *)
  Definition proxy_request (c : client) (notify : bool) (m : str) (params : val) (n : nat) (h : history)
    : res val * list event * history * nat :=
    match Payload.dump jc fresh dv (cl_cfg c) (PVal params) (VStr m) VNone (cl_version c) VNone
                       (if notify then VBool true else VNone) n with
    | Raise e => (Raise e, [], h, n)
    | Ok (req, n') =>
        match wire req with
        | Raise e => (Raise e, [], h, n')                                        (* jdumps raises: nothing was sent *)
        | Ok w =>
            let '(r, log, h') := run_request c w h in
            (match r with
             | Raise e => Raise e
             | Ok resp => if notify then (do _ <- check_for_errors resp; Ok VNone) else proxy_result resp
             end, log, h', n')
        end
    end.

  (** proxy.<m>( *args ) / proxy.<m>( **kwargs );  proxy._notify.<m>(...) *)
  Definition proxy_call (c : client) (m : str) (a : call_args) (n : nat) (h : history) :=
    proxy_request c false m (call_params a) n h.
  Definition proxy_notify (c : client) (m : str) (a : call_args) (n : nat) (h : history) :=
    proxy_request c true m (call_params a) n h.

  (** ** MultiCall *)
  Record job := mkJob { j_method : str; j_args : call_args; j_notify : bool }.

  (** MultiCallMethod.request(): dumps(self.params, self.method, version=2.0, notify=self.notify, config=self._config) *)
  Definition two_point_zero : val := VFlt (F 2 1).
  Definition job_request (mcfg : pcfg) (j : job) (n : nat) : res (val * nat) :=
    do (req, n') <- Payload.dump jc fresh dv mcfg (PVal (job_params (j_args j))) (VStr (j_method j)) VNone
                                  two_point_zero VNone (if j_notify j then VBool true else VNone) n;
    do w <- wire req;
    Ok (w, n').

  Fixpoint jobs_requests (mcfg : pcfg) (js : list job) (n : nat) : res (list val * nat) :=
    match js with
    | [] => Ok ([], n)
    | j :: r =>
        do (w, n1) <- job_request mcfg j n;
        do (ws, n2) <- jobs_requests mcfg r n1;
        Ok (w :: ws, n2)
    end.

  (** MultiCall.__call__: [None] when there is no job; otherwise what iterating over the
      MultiCallIterator gives (the results before the first failing one, then the failure) *)
  Definition multicall (c : client) (mcfg : pcfg) (js : list job) (n : nat) (h : history)
    : option (res (list (res val))) * list event * history * nat :=
    match js with
    | [] => (None, [], h, n)
    | _ =>
        match jobs_requests mcfg js n with
        | Raise e => (Some (Raise e), [], h, n)
        | Ok (ws, n') =>
            let '(r, log, h') := run_request c (VList ws) h in
            (Some (match r with
                   | Raise e => Raise e
                   | Ok VNone => Ok []                                            (* `if not responses: responses = []` *)
                   | Ok (VList items) => Ok (multicall_iter items)
                   | Ok _ => Raise EUnmodelled                                    (* a batch answered by one object *)
                   end), log, h', n')
        end
    end.
End E2E.

(** ** Observation interface for the correspondence stage (harness/props/c01.py) *)

Inductive e2e_op :=
| OpCall (m : str) (a : call_args)
| OpNotify (m : str) (a : call_args)
| OpBatch (js : list job).

(** what one operation gave: the value / exception class, for a batch the list of per-position outcomes *)
Inductive e2e_out :=
| OutVal (v : val)
| OutExn (cls : str)
| OutNone
| OutBatch (rs : list e2e_out).

Definition exn_class (e : exn) : str :=
  match e with
  | EProtocol _ => "ProtocolError" | EApp _ => "AppError" | ETransport _ _ => "TransportError"
  | ETranslation => "TranslationError" | EType => "TypeError" | EValue => "ValueError" | EKey => "KeyError"
  | EIndex => "IndexError" | EAttr => "AttributeError" | ENotImpl => "NotImplementedError"
  | EAssert => "AssertionError" | EOS => "OSError" | EImport => "ImportError" | EOther c => c
  | EUnmodelled => "<unmodelled>"
  end.

Definition out_of_res (r : res val) : e2e_out :=
  match r with Ok v => OutVal v | Raise e => OutExn (exn_class e) end.

Fixpoint out_eqb (a b : e2e_out) {struct a} : bool :=
  match a, b with
  | OutVal x, OutVal y => val_eqb x y
  | OutExn x, OutExn y => String.eqb x y
  | OutNone, OutNone => true
  | OutBatch xs, OutBatch ys =>
      (fix go (xs ys : list e2e_out) : bool :=
         match xs, ys with
         | [], [] => true
         | x :: xs', y :: ys' => out_eqb x y && go xs' ys'
         | _, _ => false
         end) xs ys
  | _, _ => false
  end.

(** a generated id is replaced by a marker before comparing texts *)
Fixpoint mask_ids (ids : list str) (v : val) {struct v} : val :=
  match v with
  | VDict m =>
      VDict ((fix go (m : list (val * val)) : list (val * val) :=
                match m with
                | [] => []
                | (k, x) :: r =>
                    (k, match k, x with
                        | VStr "id", VStr s => if existsb (String.eqb s) ids then VStr "<generated>" else VStr s
                        | _, _ => mask_ids ids x
                        end) :: go r
                end) m)
  | VList l => VList ((fix go (l : list val) : list val :=
                         match l with [] => [] | x :: r => mask_ids ids x :: go r end) l)
  | _ => v
  end.

Record e2e_case := mkE2E {
  ec_table : list cdesc;
  ec_reg : registry;
  ec_srv_form : form;
  ec_srv_jsonclass : bool;
  ec_client : client;
  ec_mcfg : pcfg;
  ec_ops : list e2e_op;
  (* implementation: per operation its outcome; the server-side call log; History requests / responses
     (generated ids masked) *)
  ec_outs : list e2e_out;
  ec_log : list event;
  ec_requests : list val;
  ec_responses : list (option val)
}.

Definition fresh_marker (n : nat) : str := "<generated>".

Section Run.
  Variable c : e2e_case.
  Let body := body_of (ec_table c).
  Let sigs := sigs_of (ec_table c).
  Let srv := mkSrv (ec_reg c) false (ec_srv_jsonclass c).
  Let dflt : val := VFlt (F 2 1).

  Definition run_op (o : e2e_op) (n : nat) (h : history) : e2e_out * list event * history * nat :=
    match o with
    | OpCall m a =>
        let '(r, log, h', n') := proxy_call body sigs fresh_marker dflt (ec_srv_form c) srv None (ec_client c) m a n h in
        (out_of_res r, log, h', n')
    | OpNotify m a =>
        let '(r, log, h', n') := proxy_notify body sigs fresh_marker dflt (ec_srv_form c) srv None (ec_client c) m a n h in
        (match r with Ok _ => OutNone | Raise e => OutExn (exn_class e) end, log, h', n')
    | OpBatch js =>
        let '(r, log, h', n') := multicall body sigs fresh_marker dflt (ec_srv_form c) srv None (ec_client c) (ec_mcfg c) js n h in
        (match r with
         | None => OutNone
         | Some (Raise e) => OutExn (exn_class e)
         | Some (Ok rs) => OutBatch (map out_of_res rs)
         end, log, h', n')
    end.

  Fixpoint run_ops (os : list e2e_op) (n : nat) (h : history) : list e2e_out * list event * history :=
    match os with
    | [] => ([], [], h)
    | o :: r =>
        let '(x, log, h1, n1) := run_op o n h in
        let '(xs, logs, h2) := run_ops r n1 h1 in
        (x :: xs, (log ++ logs)%list, h2)
    end.
End Run.

Definition opt_val_eqb (a b : option val) : bool :=
  match a, b with
  | None, None => true
  | Some x, Some y => val_eqb x y
  | _, _ => false
  end.

(** response texts are compared modulo the wording of error messages (Dispatch.obs_obj) *)
Definition obs_resp (rs : list (str * str)) (r : option val) : option val :=
  match r with
  | None => None
  | Some (VList os) => Some (VList (map (obs_obj rs) os))
  | Some o => Some (obs_obj rs o)
  end.

Definition c01_check (c : e2e_case) : bool :=
  let '(outs, log, h) := run_ops c (ec_ops c) 0%nat (mkHist [] []) in
  let rs := raisers (ec_table c) in
  list_eqb out_eqb outs (ec_outs c) && list_eqb event_eqb (map obs_event log) (ec_log c)
  && list_eqb val_eqb (h_requests h) (ec_requests c)
  && list_eqb opt_val_eqb (map (obs_resp rs) (h_responses h)) (ec_responses c).

(** ** registrations that change over the life of a server: the dispatcher keeps no memory of earlier
    resolutions, so every call is one dispatch case under the registry in force at its moment *)
Definition registry_check (cs : list dcase) : bool := forallb dispatch_check cs.
