(** * JsonClass — model of jsonrpclib/jsonclass.py (dump / load), of the
    use_jsonclass gates of jsonrpc.py (dump / load / loads) and of the -32700
    conversion at the head of SimpleJSONRPCServer._marshaled_dispatch.

    Serves properties C15, C08, C07 and C20.  Definitions only; proofs are in
    Proofs/JsonClass*.v.

    The model follows the REPAIRED code (findings F4: `classes` forwarded by
    the recursive calls of lines 238/242; F9: try/finally around the setattr
    loop; F15: name-mangled __slots__ entries are looked up under their stored
    name).  The three repairs are switchable through a [variant] record so that
    the pinned behaviour can be evaluated and refuted in Examples/ without
    copying the functions; the theorems that need a repair (C07, C15, the depth
    statement of C08) are about [fixed], the others hold of every variant. *)

From JR Require Export PyOps.
From Coq Require Import Ascii.

(** ** Small string / field-list helpers *)

Fixpoint suffixb (p s : string) : bool :=
  String.eqb p s || match s with EmptyString => false | String _ s' => suffixb p s' end.

Fixpoint lstrip_us (s : string) : string :=
  match s with
  | String "_" s' => lstrip_us s'
  | _ => s
  end.

Definition mem_str (s : str) (l : list str) : bool := existsb (String.eqb s) l.

(** attribute maps of instances ([__dict__] / set slots): insertion ordered *)
Fixpoint flookup (k : str) (fs : list (str * val)) : option val :=
  match fs with
  | [] => None
  | (k', v) :: r => if String.eqb k k' then Some v else flookup k r
  end.

Fixpoint fset (fs : list (str * val)) (k : str) (v : val) : list (str * val) :=
  match fs with
  | [] => [(k, v)]
  | (k', v') :: r => if String.eqb k k' then (k', v) :: r else (k', v') :: fset r k v
  end.

Definition fset_all (init items : list (str * val)) : list (str * val) :=
  fold_left (fun acc kv => fset acc (fst kv) (snd kv)) items init.

Fixpoint sassoc {A} (k : str) (m : list (str * A)) : option A :=
  match m with
  | [] => None
  | (k', v) :: r => if String.eqb k k' then Some v else sassoc k r
  end.

(** [d.update(other)] *)
Definition dupdate (m other : list (val * val)) : list (val * val) :=
  fold_left (fun acc kv => dset acc (fst kv) (snd kv)) other m.

(** ** Class table (DESIGN.md 3.4 / 3.7): what the Python attribute protocol,
    [inspect.getmodule], [__import__] and the generated constructors do is
    written into this table — modelled, not verified. *)

Inductive ckind :=
| KDict                      (* ordinary class: instances have a __dict__ *)
| KSlot                      (* class with tuple __slots__ (and slotted bases only) *)
| KSer (dict_params : bool)  (* __dict__ class with a serialisation method returning (params, attrs);
                                params is a list (false) or a dict (true) of the constructor arguments *)
| KEnum                      (* enum.Enum subclass, not derived from a primitive *)
| KDecimal.                  (* decimal.Decimal *)

Record classdef := mkClass {
  c_kind : ckind;
  c_module : str;                 (* inspect.getmodule(cls).__name__ ; "__main__" or "" for local classes *)
  c_name : str;                   (* cls.__name__ *)
  c_bases : list str;             (* class ids of cls.__bases__ (object omitted) *)
  c_slots : list str;             (* own __slots__ as written in the class body *)
  c_params : list str;            (* constructor parameters: all required, each stored as the attribute of the same name *)
  c_defaults : list (str * val);  (* attributes the own __init__ sets after the bases' __init__ and the parameters *)
  c_ser_name : str;               (* name under which the class defines its serialisation method ("" = none) *)
  c_ign : option (str * val);     (* class attribute holding an ignore list: its name and value *)
  c_members : list val            (* enum: the member values *)
}.

Definition ctab := list (str * classdef).

Fixpoint find_class (tab : ctab) (cid : str) : option classdef :=
  match tab with
  | [] => None
  | (c, d) :: rest => if String.eqb c cid then Some d else find_class rest cid
  end.

Record variant := mkVariant {
  v_finally : bool;       (* F9: restore "__jsonclass__" in a finally clause *)
  v_forward : bool;       (* F4: recursive load calls of lines 238/242 forward `classes` *)
  v_mangle : bool         (* F15: _slots_finder reports private slots under their mangled name *)
}.
Definition fixed : variant := mkVariant true true true.

(** private-name mangling of the class body: __x in class C is stored as _C__x *)
Definition mangle (cname s : str) : str :=
  if prefixb "__" s && negb (suffixb "__" s) then "_" ++ lstrip_us cname ++ s else s.

(** The table lists a class before its bases, so that the walks over
    [__bases__] below are structurally recursive on the table. *)

(** [_slots_finder(clazz, fields_set)] (64-79): own __slots__, then the bases, recursively *)
Fixpoint slots_finder (V : variant) (tab : ctab) (cid : str) : list str :=
  match tab with
  | [] => []
  | (c, d) :: rest =>
      if String.eqb c cid
      then (map (fun s => if v_mangle V then mangle (c_name d) s else s) (c_slots d)
              ++ flat_map (slots_finder V rest) (c_bases d))%list
      else slots_finder V rest cid
  end.

(** names under which slot descriptors really exist (what setattr accepts) *)
Definition real_slots (tab : ctab) (cid : str) : list str := slots_finder fixed tab cid.

(** [type(obj).__mro__] as class ids, the class itself first *)
Fixpoint ancestors (tab : ctab) (cid : str) : list str :=
  match tab with
  | [] => []
  | (c, d) :: rest =>
      if String.eqb c cid then c :: flat_map (ancestors rest) (c_bases d)
      else ancestors rest cid
  end.

(** state of [cls( *args )] for the generated Python classes:
    bases' __init__ first, then the parameters, then the own defaults *)
Fixpoint ctor_fields (tab : ctab) (cid : str) (args : list (str * val)) : list (str * val) :=
  match tab with
  | [] => []
  | (c, d) :: rest =>
      if String.eqb c cid
      then fset_all (fset_all (flat_map (fun b => ctor_fields rest b []) (c_bases d)) args) (c_defaults d)
      else ctor_fields rest cid args
  end.

(** first class of the MRO that satisfies [p] *)
Definition mro_find (tab : ctab) (cid : str) (p : classdef -> bool) : option classdef :=
  (fix go (l : list str) : option classdef :=
     match l with
     | [] => None
     | c :: r => match find_class tab c with
                 | Some d => if p d then Some d else go r
                 | None => go r
                 end
     end) (ancestors tab cid).

Record pyenv := mkEnv {
  e_ctab : ctab;
  e_modules : list str            (* importable module names *)
}.

(** ** Types, handlers, configuration *)

Inductive tyid :=
| TNone | TBool | TInt | TFloat | TStr | TList | TTuple | TSet | TFrozen | TDict
| TClass (cid : str) | TOpaque (tag : N).

Definition type_of (v : val) : tyid :=
  match v with
  | VNone => TNone | VBool _ => TBool | VInt _ => TInt | VFlt _ => TFloat | VStr _ => TStr
  | VList _ => TList | VTuple _ => TTuple | VSet _ => TSet | VFrozen _ => TFrozen | VDict _ => TDict
  | VInst c _ => TClass c | VEnum c _ => TClass c | VDec _ => TClass "decimal.Decimal"
  | VOpaque t => TOpaque t
  end.

Definition tyid_eqb (a b : tyid) : bool :=
  match a, b with
  | TNone, TNone | TBool, TBool | TInt, TInt | TFloat, TFloat | TStr, TStr | TList, TList
  | TTuple, TTuple | TSet, TSet | TFrozen, TFrozen | TDict, TDict => true
  | TClass x, TClass y => String.eqb x y
  | TOpaque x, TOpaque y => N.eqb x y
  | _, _ => false
  end.

Record config := mkCfg {
  cf_use : bool;                            (* use_jsonclass *)
  cf_ser : str;                             (* serialize_method *)
  cf_ign : str;                             (* ignore_attribute *)
  cf_handlers : list (tyid * option N);     (* serialize_handlers: type -> handler id, or None *)
  cf_classes : list (str * str)             (* Config.classes: local name -> class id *)
}.

Fixpoint handler_entry (t : tyid) (hs : list (tyid * option N)) : option (option N) :=
  match hs with
  | [] => None
  | (t', h) :: r => if tyid_eqb t t' then Some h else handler_entry t r
  end.

(** lines 131-140: a handler applies when the exact type is a key and the entry is not None *)
Definition handler_for (cfg : config) (t : tyid) : option N :=
  match handler_entry t (cf_handlers cfg) with
  | Some (Some h) => Some h
  | _ => None
  end.

(** SUPPORTED_TYPES (48-50) with the type tables of utils.py:155-164 *)
Definition supported_ty (t : tyid) : bool :=
  match t with
  | TClass _ | TOpaque _ => false
  | _ => true
  end.

(** [isinstance(x, T)] for a type T that is a key of the handler table *)
Definition subtype (E : pyenv) (t T : tyid) : bool :=
  tyid_eqb t T ||
  match t, T with
  | TBool, TInt => true
  | TClass c, TClass b => mem_str b (ancestors (e_ctab E) c)
  | _, _ => false
  end.

(** line 192 + 204: isinstance(attr_value, SUPPORTED_TYPES + tuple(config.serialize_handlers)) *)
Definition known_type (E : pyenv) (cfg : config) (x : val) : bool :=
  supported_ty (type_of x) || existsb (fun th => subtype E (type_of x) (fst th)) (cf_handlers cfg).

(** lines 162-166: the name written into "__jsonclass__" *)
Definition dump_name (d : classdef) : str :=
  if String.eqb (c_module d) "" || String.eqb (c_module d) "__main__"
  then c_name d else c_module d ++ "." ++ c_name d.

Definition jsonclass_key : val := VStr "__jsonclass__".

Definition has_dict (d : classdef) : bool :=
  match c_kind d with KDict | KSer _ => true | _ => false end.

(** which class of the MRO defines the serialisation method / the ignore attribute of the given name *)
Definition ser_pred (sm : str) (d' : classdef) : bool :=
  negb (String.eqb sm "") && String.eqb (c_ser_name d') sm.
Definition ign_pred (ia : str) (d' : classdef) : bool :=
  match c_ign d' with Some (n, _) => String.eqb n ia | None => false end.

(** ** Traversal combinators.  The comprehensions and loops of dump / load are written once,
    over the function applied to the members, so that the recursive models below stay
    structurally recursive (nested recursion through these, as through [List.map]). *)

(** [[f(x) for x in l]]: the first exception wins *)
Definition mapM {A B} (f : A -> res B) : list A -> res (list B) :=
  fix go (l : list A) : res (list B) :=
    match l with
    | [] => Ok []
    | x :: xs => do y <- f x; do ys <- go xs; Ok (y :: ys)
    end.

(** [{key: f(value) for key, value in m.items()}] *)
Definition mapM_values (f : val -> res val) (m : list (val * val)) : res (list (val * val)) :=
  mapM (fun kv => do y <- f (snd kv); Ok (fst kv, y)) m.

(** ** dump (103-216) *)

Section Dump.
  (** serialize handlers are arbitrary callables: [hfun h obj] is what handler [h] returns *)
  Variable hfun : N -> val -> res val.
  Variable V : variant.
  Variable E : pyenv.
  Variable cfg : config.
  (** the (already normalised, 124-126) names and the per-call ignore list; they are
      forwarded unchanged by every recursive call *)
  Variable sm ia : str.
  Variable ign : list val.

  (** 193: getattr(obj, ignore_attribute, []) + ignore *)
  Definition ignore_list (c : str) (fields : list (str * val)) : res (list val) :=
    let own := match flookup ia fields with
               | Some x => x
               | None =>
                   match mro_find (e_ctab E) c (ign_pred ia) with
                   | Some d => match c_ign d with Some (_, x) => x | None => VList [] end
                   | None => VList []
                   end
               end in
    match own with
    | VList l => Ok (l ++ ign)%list
    | _ => Raise EType                     (* tuple + list, str + list, None + list *)
    end.

  (** 197: fields.difference_update(ignore_list) — by name *)
  Definition name_ignored (k : str) (ignl : list val) : bool := existsb (py_eq (VStr k)) ignl.

  (** 199-213: the loop over the (name-filtered) fields; [f] is the recursive dump *)
  Definition dump_fields (f : val -> res val) (ignl : list val) : list (str * val) -> res (list (val * val)) :=
    fix go (fs : list (str * val)) : res (list (val * val)) :=
      match fs with
      | [] => Ok []
      | kx :: r =>
          if name_ignored (fst kx) ignl then go r                            (* 197 *)
          else if known_type E cfg (snd kx) && negb (existsb (py_eq (snd kx)) ignl)      (* 203-206 *)
          then do y <- f (snd kx); do ys <- go r; Ok ((VStr (fst kx), y) :: ys)
          else go r
      end.

  (** the generated serialisation methods: ([self.p for p in params] or {p: self.p}, the other attributes) *)
  Fixpoint get_params (fields : list (str * val)) (ps : list str) : res (list (str * val)) :=
    match ps with
    | [] => Ok []
    | p :: r => match flookup p fields with
                | Some x => do xs <- get_params fields r; Ok ((p, x) :: xs)
                | None => Raise EAttr
                end
    end.

  Definition serialize_call (ds : classdef) (fields : list (str * val)) : res (val * list (str * val)) :=
    do ps <- get_params fields (c_params ds);
    Ok (match c_kind ds with
        | KSer true => VDict (map (fun px => (VStr (fst px), snd px)) ps)
        | _ => VList (map snd ps)
        end,
        filter (fun kx => negb (mem_str (fst kx) (c_params ds))) fields).

  Definition descriptor_dict (name params : val) (attrs : list (val * val)) : val :=
    VDict (dupdate [(jsonclass_key, VList [name; params])] attrs).

  Fixpoint jc_dump (v : val) {struct v} : res val :=
    match handler_for cfg (type_of v) with
    | Some h => hfun h v                                            (* 131-140: verbatim *)
    | None =>
        match v with
        | VNone | VBool _ | VInt _ | VFlt _ | VStr _ => Ok v        (* 143-144 *)
        | VList l | VTuple l | VSet l | VFrozen l =>                (* 147-152 *)
            do ys <- mapM jc_dump l; Ok (VList ys)
        | VDict m =>                                                (* 154-159 *)
            do ys <- mapM_values jc_dump m; Ok (VDict ys)
        | VInst c fields =>                                         (* 161-216 *)
            match find_class (e_ctab E) c with
            | None => Raise EUnmodelled
            | Some d =>
                let name := VStr (dump_name d) in
                match flookup sm fields with
                | Some _ => Raise EType                             (* 172-176: the attribute is not callable *)
                | None =>
                    match mro_find (e_ctab E) c (ser_pred sm) with
                    | Some ds =>                                    (* 172-178: params, attrs = serialize() *)
                        do pa <- serialize_call ds fields;
                        Ok (descriptor_dict name (fst pa) (map (fun kx => (VStr (fst kx), snd kx)) (snd pa)))
                    | None =>                                       (* 185-214 *)
                        do ignl <- ignore_list c fields;
                        if negb (forallb hashable ignl) then Raise EType     (* set.difference_update *)
                        else
                        do attrs <- dump_fields jc_dump ignl fields;
                        (* a slot that was never assigned: getattr raises *)
                        if forallb (fun s => match flookup s fields with Some _ => true | None => name_ignored s ignl end)
                                   (slots_finder V (e_ctab E) c)
                        then Ok (descriptor_dict name (VList []) attrs)
                        else Raise EAttr
                    end
                end
            end
        | VDec s =>                                                 (* 179-181 *)
            match find_class (e_ctab E) "decimal.Decimal" with
            | Some d => Ok (descriptor_dict (VStr (dump_name d)) (VList [VStr s]) [])
            | None => Raise EUnmodelled
            end
        | VEnum c m =>                                              (* 182-184: the value is emitted as is *)
            match find_class (e_ctab E) c with
            | Some d => Ok (descriptor_dict (VStr (dump_name d)) (VList [m]) [])
            | None => Raise EUnmodelled
            end
        | VOpaque _ => Raise EUnmodelled
        end
    end.
End Dump.

(** 123-126: `x or config.x` *)
Definition norm_name (arg : option str) (dflt : str) : str :=
  match arg with
  | Some s => if String.eqb s "" then dflt else s
  | None => dflt
  end.

(** [jsonclass.dump(obj, serialize_method, ignore_attribute, ignore, config)] *)
Definition jc_dump_top (hfun : N -> val -> res val) (V : variant) (E : pyenv) (cfg : config)
           (sm_arg ia_arg : option str) (ign_arg : option (list val)) (v : val) : res val :=
  jc_dump hfun V E cfg (norm_name sm_arg (cf_ser cfg)) (norm_name ia_arg (cf_ign cfg))
          (match ign_arg with Some l => l | None => [] end) v.

(** ** load (222-325) *)

Inductive event :=
| EvImport (tree : str)        (* __import__(tree, fromlist=[...]) is called *)
| EvConstruct (cid : str).     (* json_class( *params ) / json_class( **params ) is called *)

(** 53, 252-256: the name survives re.sub(INVALID_MODULE_CHARS, "", name) unchanged *)
Definition valid_char (a : ascii) : bool :=
  let n := N_of_ascii a in
  ((97 <=? n) && (n <=? 122) || (65 <=? n) && (n <=? 90) || (48 <=? n) && (n <=? 57) || (n =? 95) || (n =? 46))%N.

Fixpoint valid_name (s : string) : bool :=
  match s with
  | EmptyString => true
  | String a s' => valid_char a && valid_name s'
  end.

(** 270-291: __import__ then getattr *)
Definition resolve_import (E : pyenv) (tree cls : str) : res str :=
  if String.eqb tree "" then Raise EValue                                 (* ValueError: Empty module name *)
  else if negb (mem_str tree (e_modules E)) then Raise ETranslation       (* ImportError *)
  else match find (fun cd => String.eqb (c_module (snd cd)) tree && String.eqb (c_name (snd cd)) cls) (e_ctab E) with
       | Some (cid, _) => Ok cid
       | None => Raise ETranslation                                       (* AttributeError *)
       end.

(** keyword / positional binding of the generated constructors *)
Definition bind_params (names : list str) (params : val) : res (list (str * val)) :=
  match params with
  | VList args =>
      if Nat.eqb (length args) (length names) then Ok (combine names args) else Raise ETranslation
  | VDict kw =>
      if negb (forallb (fun kx => is_string (fst kx)) kw) then Raise ETranslation     (* keywords must be strings *)
      else if Nat.eqb (length kw) (length names)
           && forallb (fun n => dhas kw n) names
           then Ok (map (fun n => (n, match dget kw n with Some x => x | None => VNone end)) names)
           else Raise ETranslation
  | _ => Raise ETranslation
  end.

(** decimal literals whose str() is the literal itself: optional minus, 0 or a digit string without leading zero, optional fraction *)
Definition dec_ok (s : string) : bool :=
  let body := match s with String "-" r => r | _ => s end in
  match parse_digits body 0 0%nat with
  | Some (_, S k, rest) =>
      (Nat.eqb k 0 || negb (prefixb "0" body)) &&
      match rest with
      | EmptyString => true
      | String "." frac => match parse_digits frac 0 0%nat with
                           | Some (_, S _, EmptyString) => true
                           | _ => false
                           end
      | _ => false
      end
  | _ => false
  end.

(** 294-312 *)
Definition construct (E : pyenv) (cid : str) (params : val) : res val :=
  match params with
  | VList _ | VDict _ =>
      match find_class (e_ctab E) cid with
      | None => Raise EUnmodelled
      | Some d =>
          match c_kind d with
          | KEnum =>
              match params with
              | VList [x] => match find (py_eq x) (c_members d) with
                             | Some m => Ok (VEnum cid m)
                             | None => Raise EValue
                             end
              | VList [] => Raise ETranslation
              | _ => Raise EUnmodelled
              end
          | KDecimal =>
              match params with
              | VList [VStr s] => if dec_ok s then Ok (VDec s) else Raise EUnmodelled
              | _ => Raise EUnmodelled
              end
          | _ =>
              do args <- bind_params (c_params d) params;
              Ok (VInst cid (ctor_fields (e_ctab E) cid args))
          end
      end
  | _ => Raise ETranslation             (* 308-312 *)
  end.

Definition dunder (s : string) : bool := prefixb "__" s && suffixb "__" s.

(** setattr(new_obj, key, value) *)
Definition py_setattr (E : pyenv) (obj key value : val) : res val :=
  match key with
  | VStr k =>
      if dunder k then Raise EUnmodelled
      else
      match obj with
      | VInst c fields =>
          match find_class (e_ctab E) c with
          | Some d =>
              if has_dict d then Ok (VInst c (fset fields k value))
              else if mem_str k (real_slots (e_ctab E) c) then Ok (VInst c (fset fields k value))
              else Raise EAttr
          | None => Raise EUnmodelled
          end
      | VDec _ => Raise EAttr
      | _ => Raise EUnmodelled            (* enum members are process-global objects *)
      end
  | _ => Raise EType                      (* attribute name must be string *)
  end.

Fixpoint last_str (l : list str) : str :=
  match l with
  | [] => ""
  | [x] => x
  | _ :: r => last_str r
  end.

(** 258-291: the class named [s]: local table when it is non-empty and the name has no dot, import otherwise *)
Definition resolve_name (E : pyenv) (classes : list (str * str)) (s : str) : res str * list event :=
  let parts := split_dot s in
  if truthy (VDict (map (fun kc => (VStr (fst kc), VStr (snd kc))) classes))
     && Nat.eqb (length parts) 1
  then (match sassoc s classes with                       (* 260-267 *)
        | Some cid => Ok cid
        | None => Raise ETranslation
        end, [])
  else let cls := last_str parts in                       (* 270-291 *)
       let tree := join "." (removelast parts) in
       (resolve_import E tree cls, [EvImport tree]).

(** 245-312: everything between the membership test and the pop; the argument is not written *)
Definition descriptor_head (E : pyenv) (classes : list (str * str)) (m : list (val * val))
  : res val * list event :=
  match py_getitem (VDict m) jsonclass_key with
  | Raise e => (Raise e, [])
  | Ok jc =>
  match py_getitem jc (VInt 0) with                                   (* 245 *)
  | Raise e => (Raise e, [])
  | Ok name =>
  match py_getitem jc (VInt 1) with                                   (* 246 *)
  | Raise e => (Raise e, [])
  | Ok params =>
      if negb (truthy name) then (Raise ETranslation, [])             (* 249-250 *)
      else match name with
      | VStr s =>
          if negb (valid_name s) then (Raise ETranslation, [])        (* 252-256 *)
          else
            let '(rc, ev) := resolve_name E classes s in
            match rc with
            | Raise e => (Raise e, ev)
            | Ok cid =>
                match params with
                | VList _ | VDict _ => (construct E cid params, ev ++ [EvConstruct cid])%list
                | _ => (Raise ETranslation, ev)
                end
            end
      | _ => (Raise EType, [])                                        (* re.sub on a non-string *)
      end
  end end end.

Definition lres := (res val * val * list event)%type.

(** the caller's dict between the pop of line 316 and the restore of line 323 *)
Definition drop_jc (m : list (val * val)) : list (val * val) :=
  filter (fun kv => negb (py_eq jsonclass_key (fst kv))) m.

(** [[f(entry) for entry in l]] with the argument threaded: result, the entries as the caller
    finds them afterwards, events.  Entries after a failing one are not visited. *)
Definition load_seq (f : val -> lres) : list val -> res (list val) * list val * list event :=
  fix go (l : list val) :=
    match l with
    | [] => (Ok [], [], [])
    | x :: xs =>
        let '(r, x', ev) := f x in
        match r with
        | Raise e => (Raise e, x' :: xs, ev)
        | Ok y =>
            let '(rs, xs', evs) := go xs in
            (match rs with Ok ys => Ok (y :: ys) | Raise e => Raise e end, x' :: xs', (ev ++ evs)%list)
        end
    end.

(** [{key: f(value) for key, value in m.items()}], threaded likewise *)
Definition load_items (f : val -> lres) : list (val * val) -> res (list (val * val)) * list (val * val) * list event :=
  fix go (m : list (val * val)) :=
    match m with
    | [] => (Ok [], [], [])
    | kx :: rest =>
        let '(r, x', ev) := f (snd kx) in
        match r with
        | Raise e => (Raise e, (fst kx, x') :: rest, ev)
        | Ok y =>
            let '(rs, rest', evs) := go rest in
            (match rs with Ok ys => Ok ((fst kx, y) :: ys) | Raise e => Raise e end,
             (fst kx, x') :: rest', (ev ++ evs)%list)
        end
    end.

(** 318-320: [for key, value in obj.items(): setattr(new_obj, key, f(value))] over the caller's
    dict from which "__jsonclass__" has been popped (316): the loop walks the dict and skips the
    popped entry (keys are unique, so this is the dict without that key).  Returns the object,
    the remaining entries as the caller finds them, events. *)
Definition setattr_loop (E : pyenv) (f : val -> lres)
  : list (val * val) -> val -> res val * list (val * val) * list event :=
  fix go (items : list (val * val)) (obj : val) {struct items} :=
    match items with
    | [] => (Ok obj, [], [])
    | kx :: more =>
        if py_eq jsonclass_key (fst kx) then go more obj else
        let '(r, x', ev) := f (snd kx) in
        match r with
        | Raise e => (Raise e, (fst kx, x') :: drop_jc more, ev)
        | Ok y =>
            match py_setattr E obj (fst kx) y with
            | Raise e => (Raise e, (fst kx, x') :: drop_jc more, ev)
            | Ok obj' =>
                let '(r2, more', ev2) := go more obj' in
                (r2, (fst kx, x') :: more', (ev ++ ev2)%list)
            end
        end
    end.

Section Load.
  Variable V : variant.
  Variable E : pyenv.

  Fixpoint jc_load_m (classes : list (str * str)) (v : val) {struct v} : lres :=
    let inner := if v_forward V then classes else [] in               (* 238, 242 *)
    match v with
    | VNone | VBool _ | VInt _ | VFlt _ | VStr _ => (Ok v, v, [])     (* 232-233 *)
    | VList l =>                                                      (* 236-238 *)
        let '(r, l', ev) := load_seq (jc_load_m inner) l in (do ys <- r; Ok (VList ys), VList l', ev)
    | VTuple l => let '(r, l', ev) := load_seq (jc_load_m inner) l in (do ys <- r; Ok (VList ys), VTuple l', ev)
    | VSet l => let '(r, l', ev) := load_seq (jc_load_m inner) l in (do ys <- r; Ok (VList ys), VSet l', ev)
    | VFrozen l => let '(r, l', ev) := load_seq (jc_load_m inner) l in (do ys <- r; Ok (VList ys), VFrozen l', ev)
    | VDict m =>
        if negb (dhas m "__jsonclass__") then                         (* 241-242 *)
          let '(r, m', ev) := load_items (jc_load_m inner) m in
          (do ys <- r; Ok (VDict ys), VDict m', ev)
        else
          match descriptor_head E classes m with                      (* 245-312 *)
          | (Raise e, ev) => (Raise e, VDict m, ev)
          | (Ok new_obj, ev) =>
              let raw := match dget m "__jsonclass__" with Some x => x | None => VNone end in
              let '(r, rest', ev2) := setattr_loop E (jc_load_m classes) m new_obj in      (* 316-320 *)
              let restored := (rest' ++ [(jsonclass_key, raw)])%list in                     (* 323 *)
              (r,
               match r with
               | Ok _ => VDict restored
               | Raise _ => if v_finally V then VDict restored else VDict rest'
               end,
               (ev ++ ev2)%list)
          end
    | VInst _ _ | VDec _ | VEnum _ _ | VOpaque _ => (Raise EType, v, [])   (* `"__jsonclass__" not in obj` *)
    end.
End Load.

Definition lres_val (r : lres) : res val := fst (fst r).
Definition lres_arg (r : lres) : val := snd (fst r).
Definition lres_events (r : lres) : list event := snd r.

(** ** The gates of jsonrpc.py *)

(** jsonrpc.load (1308-1327) *)
Definition rpc_load (V : variant) (E : pyenv) (cfg : config) (data : val) : lres :=
  match data with
  | VNone => (Ok VNone, VNone, [])
  | _ => if cf_use cfg then jc_load_m V E (cf_classes cfg) data else (Ok data, data, [])
  end.

(** the part of jsonrpc.dump that touches the parameters / result (1257-1259) *)
Definition rpc_dump_params (hfun : N -> val -> res val) (V : variant) (E : pyenv) (cfg : config) (params : val) : res val :=
  if cf_use cfg then jc_dump_top hfun V E cfg None None None params else Ok params.

Section Server.
  (** the JSON backend and the rest of the dispatcher are external here *)
  Variable dec : str -> res val.
  Variable call : Type.
  Variable dispatch : val -> val * list call.     (* _unmarshaled_dispatch + jdumps: reply, invocation log *)

  (** jsonrpc.loads (1330-1347) *)
  Definition rpc_loads (V : variant) (E : pyenv) (cfg : config) (data : str) : res val * list event :=
    if String.eqb data "" then (Ok VNone, [])
    else match dec data with
         | Raise e => (Raise e, [])
         | Ok v => let r := rpc_load V E cfg v in (lres_val r, lres_events r)
         end.

  (** Fault(-32700, ...).response() with the server's configured version *)
  Definition parse_error_reply (v2 : bool) : val :=
    if v2 then VDict [(VStr "jsonrpc", VStr "2.0"); (VStr "error", VDict [(VStr "code", VInt (-32700))]); (VStr "id", VNone)]
    else VDict [(VStr "result", VNone); (VStr "error", VDict [(VStr "code", VInt (-32700))]); (VStr "id", VNone)].

  (** SimpleJSONRPCServer._marshaled_dispatch (273-310): message texts are not modelled *)
  Definition marshaled_dispatch (V : variant) (E : pyenv) (cfg : config) (v2 : bool) (data : str)
    : val * list call * list event :=
    match rpc_loads V E cfg data with
    | (Raise _, ev) => (parse_error_reply v2, [], ev)
    | (Ok request, ev) => let '(reply, calls) := dispatch request in (reply, calls, ev)
    end.
End Server.

(** ** Domain predicates *)

(** nestings of the four iterable kinds, dicts and primitives *)
Fixpoint plain (v : val) : bool :=
  match v with
  | VNone | VBool _ | VInt _ | VFlt _ | VStr _ => true
  | VList l | VTuple l | VSet l | VFrozen l => forallb plain l
  | VDict m => forallb (fun kv => plain (snd kv)) m
  | _ => false
  end.

(** no dict of the nesting carries a "__jsonclass__" key *)
Fixpoint no_descriptor (v : val) : bool :=
  match v with
  | VList l | VTuple l | VSet l | VFrozen l => forallb no_descriptor l
  | VDict m => negb (dhas m "__jsonclass__") && forallb (fun kv => no_descriptor (snd kv)) m
  | _ => true
  end.

Fixpoint str_keys (v : val) : bool :=
  match v with
  | VList l | VTuple l | VSet l | VFrozen l => forallb str_keys l
  | VDict m => forallb (fun kv => is_string (fst kv) && str_keys (snd kv)) m
  | _ => true
  end.

(** made of dicts, lists and primitives only *)
Fixpoint json_shape (v : val) : bool :=
  match v with
  | VNone | VBool _ | VInt _ | VFlt _ | VStr _ => true
  | VList l => forallb json_shape l
  | VDict m => forallb (fun kv => json_shape (snd kv)) m
  | _ => false
  end.

(** the primitives of a nesting, left to right (dict keys are not traversed by dump/load) *)
Fixpoint leaves (v : val) : list val :=
  match v with
  | VList l | VTuple l | VSet l | VFrozen l => flat_map leaves l
  | VDict m => flat_map (fun kv => leaves (snd kv)) m
  | _ => [v]
  end.

(** the value with the "__jsonclass__" entry of every dict moved to the end: two Python values
    with the same [canon] are [==] (dict comparison ignores the order of the entries) *)
Fixpoint canon (v : val) : val :=
  match v with
  | VList l => VList (map canon l)
  | VTuple l => VTuple (map canon l)
  | VSet l => VSet (map canon l)
  | VFrozen l => VFrozen (map canon l)
  | VDict m =>
      let m' := map (fun kv => (fst kv, canon (snd kv))) m in
      VDict (drop_jc m' ++ match dget m' "__jsonclass__" with Some x => [(jsonclass_key, x)] | None => [] end)
  | _ => v
  end.

(** C08: the class name of a descriptor is a non-empty string over [a-zA-Z0-9_.] *)
Definition name_ok (name : val) : bool :=
  match name with
  | VStr s => negb (String.eqb s "") && valid_name s
  | _ => false
  end.

(** "otherwise well-formed": the "__jsonclass__" member is a list of length >= 2 whose second
    element is a list or a dict *)
Definition descriptor_shape (jc : val) : option (val * val) :=
  match jc with
  | VList (name :: params :: _) =>
      match params with
      | VList _ | VDict _ => Some (name, params)
      | _ => None
      end
  | _ => None
  end.

(** positions load traverses: items of the four iterable kinds and values of descriptor-free dicts
    (C08: a rejected descriptor at any depth); [plug f x] puts [x] at the hole of the frame *)
Inductive frame :=
| FList (pre post : list val) | FTuple (pre post : list val)
| FSet (pre post : list val) | FFrozen (pre post : list val)
| FDict (pre : list (val * val)) (k : val) (post : list (val * val)).

Definition plug (f : frame) (x : val) : val :=
  match f with
  | FList pre post => VList (pre ++ x :: post)
  | FTuple pre post => VTuple (pre ++ x :: post)
  | FSet pre post => VSet (pre ++ x :: post)
  | FFrozen pre post => VFrozen (pre ++ x :: post)
  | FDict pre k post => VDict (pre ++ (k, x) :: post)
  end.

(** outermost frame first *)
Definition plugs (fs : list frame) (x : val) : val := fold_right plug x fs.

Definition loads_ok (V : variant) (E : pyenv) (cl : list (str * str)) (x : val) : bool :=
  match lres_val (jc_load_m V E cl x) with Ok _ => true | Raise _ => false end.

(** the members visited before the hole load successfully; a dict frame is not itself a descriptor *)
Definition frame_ok (V : variant) (E : pyenv) (cl : list (str * str)) (f : frame) : bool :=
  match f with
  | FList pre _ | FTuple pre _ | FSet pre _ | FFrozen pre _ => forallb (loads_ok V E cl) pre
  | FDict pre k post =>
      forallb (fun kv => loads_ok V E cl (snd kv)) pre &&
      negb (dhas (pre ++ (k, VNone) :: post) "__jsonclass__")
  end.

(** events of the members visited before the hole *)
Definition frame_events (V : variant) (E : pyenv) (cl : list (str * str)) (f : frame) : list event :=
  match f with
  | FList pre _ | FTuple pre _ | FSet pre _ | FFrozen pre _ =>
      flat_map (fun x => lres_events (jc_load_m V E cl x)) pre
  | FDict pre _ _ => flat_map (fun kv => lres_events (jc_load_m V E cl (snd kv))) pre
  end.

(** ** C07: supported object graphs *)

(** normalisation that also looks inside instances: what a reloaded object graph is compared with *)
Fixpoint normi (v : val) : val :=
  match v with
  | VList l | VTuple l | VSet l | VFrozen l => VList (map normi l)
  | VDict m => VDict (map (fun kv => (fst kv, normi (snd kv))) m)
  | VInst c fs => VInst c (map (fun kv => (fst kv, normi (snd kv))) fs)
  | _ => v
  end.

Definition fields_eqb (a b : list (str * val)) : bool :=
  list_eqb (fun x y => String.eqb (fst x) (fst y) && val_eqb (snd x) (snd y)) a b.

Fixpoint nodup_str (l : list str) : bool :=
  match l with
  | [] => true
  | x :: r => negb (mem_str x r) && nodup_str r
  end.

(** the name dump writes for class [c] is accepted by load and leads back to [c] *)
Definition resolves (E : pyenv) (cl : list (str * str)) (d : classdef) (c : str) : bool :=
  name_ok (VStr (dump_name d)) &&
  match fst (resolve_name E cl (dump_name d)) with
  | Ok c' => String.eqb c' c
  | Raise _ => false
  end.

Definition is_some {A} (o : option A) : bool := match o with Some _ => true | None => false end.

(** field names are ordinary attribute names, each occurring once, and setattr accepts them *)
Definition field_names_ok (E : pyenv) (c : str) (d : classdef) (fields : list (str * val)) : bool :=
  nodup_str (map fst fields) &&
  forallb (fun kx => negb (dunder (fst kx)) && (has_dict d || mem_str (fst kx) (real_slots (e_ctab E) c))) fields.

(** [supported E cl sm ia v]: the domain of C07 for the class table [E], the local table [cl] and the
    configured names — primitives; containers of supported values; dicts without a "__jsonclass__" key;
    Decimals; enum members; instances of
    - automatically serialised classes (attribute-dict or slotted, argument-less constructor, no ignore
      list, every slot assigned) whose field values are primitives or containers (beans only inside those),
    - classes with a serialisation method whose constructor arguments and attribute map are JSON values,
    such that constructing the class anew and assigning the dumped attributes yields the fields again
    (for automatically serialised classes this follows from the instance carrying the constructor's
    attributes first: [reload_of_wf_instance]) and such that the dumped class name leads back to the class. *)
Fixpoint supported (E : pyenv) (cl : list (str * str)) (sm ia : str) (v : val) {struct v} : bool :=
  match v with
  | VNone | VBool _ | VInt _ | VFlt _ | VStr _ => true
  | VList l | VTuple l | VSet l | VFrozen l => forallb (supported E cl sm ia) l
  | VDict m => negb (dhas m "__jsonclass__") && forallb (fun kv => supported E cl sm ia (snd kv)) m
  | VDec s =>
      match find_class (e_ctab E) "decimal.Decimal" with
      | Some d => match c_kind d with KDecimal => true | _ => false end && dec_ok s && resolves E cl d "decimal.Decimal"
      | None => false
      end
  | VEnum c m =>
      match find_class (e_ctab E) c with
      | Some d => match c_kind d with KEnum => true | _ => false end &&
                  match find (py_eq m) (c_members d) with Some m' => val_eqb m' m | None => false end &&
                  resolves E cl d c
      | None => false
      end
  | VInst c fields =>
      match find_class (e_ctab E) c with
      | None => false
      | Some d =>
          resolves E cl d c && negb (is_some (flookup sm fields)) && field_names_ok E c d fields &&
          match mro_find (e_ctab E) c (ser_pred sm) with
          | Some ds =>
              match c_kind d with KSer _ => true | _ => false end &&
              list_eqb String.eqb (c_params ds) (c_params d) &&
              forallb (fun kx => is_json (snd kx) && no_descriptor (snd kx)) fields &&
              forallb (fun p => is_some (flookup p fields)) (c_params d) &&
              fields_eqb (fset_all (ctor_fields (e_ctab E) c
                                      (map (fun p => (p, match flookup p fields with Some x => x | None => VNone end)) (c_params d)))
                                   (filter (fun kx => negb (mem_str (fst kx) (c_params d))) fields))
                         fields
          | None =>
              match c_kind d with KDict | KSlot => true | _ => false end &&
              match c_params d with [] => true | _ => false end &&
              negb (is_some (flookup ia fields)) &&
              negb (is_some (mro_find (e_ctab E) c (ign_pred ia))) &&
              forallb (fun s => is_some (flookup s fields)) (slots_finder fixed (e_ctab E) c) &&
              forallb (fun kx => supported_ty (type_of (snd kx)) && supported E cl sm ia (snd kx)) fields &&
              fields_eqb (fset_all (ctor_fields (e_ctab E) c []) (map (fun kv => (fst kv, normi (snd kv))) fields))
                         (map (fun kv => (fst kv, normi (snd kv))) fields)
          end
      end
  | VOpaque _ => false
  end.

(** ** C20: the positions dump traverses, and occurrence in the dumped form *)

(** the test of lines 197 and 203-206 on one field *)
Definition field_kept (E : pyenv) (cfg : config) (ignl : list val) (kx : str * val) : bool :=
  negb (existsb (py_eq (VStr (fst kx))) ignl) && (known_type E cfg (snd kx) && negb (existsb (py_eq (snd kx)) ignl)).

Definition seq_items (v : val) : option (list val) :=
  match v with VList l | VTuple l | VSet l | VFrozen l => Some l | _ => None end.

(** [reaches ... v y]: [y] sits at a position of [v] that dump traverses — items of lists / tuples /
    sets / frozensets, dict values, fields of automatically serialised objects that pass the filter —
    through nodes to which no handler applies (a handler's argument is not traversed) *)
Inductive reaches (E : pyenv) (cfg : config) (sm ia : str) (ign : list val) : val -> val -> Prop :=
| R_here v : reaches E cfg sm ia ign v v
| R_item v l x y :
    seq_items v = Some l -> handler_for cfg (type_of v) = None -> In x l ->
    reaches E cfg sm ia ign x y -> reaches E cfg sm ia ign v y
| R_value m k x y :
    handler_for cfg TDict = None -> In (k, x) m ->
    reaches E cfg sm ia ign x y -> reaches E cfg sm ia ign (VDict m) y
| R_field c fields d ignl n x y :
    handler_for cfg (TClass c) = None -> find_class (e_ctab E) c = Some d ->
    flookup sm fields = None -> mro_find (e_ctab E) c (ser_pred sm) = None ->
    ignore_list E ia ign c fields = Ok ignl ->
    nodup_str (map fst fields) = true -> n <> "__jsonclass__" ->
    In (n, x) fields -> field_kept E cfg ignl (n, x) = true ->
    reaches E cfg sm ia ign x y -> reaches E cfg sm ia ign (VInst c fields) y.

(** [occurs o out]: [o] is [out] or sits in it below list items and dict values *)
Inductive occurs : val -> val -> Prop :=
| O_here o : occurs o o
| O_item o ys y : In y ys -> occurs o y -> occurs o (VList ys)
| O_value o m k y : In (k, y) m -> occurs o y -> occurs o (VDict m).

Definition is_prim (v : val) : bool :=
  match v with VNone | VBool _ | VInt _ | VFlt _ | VStr _ => true | _ => false end.

Definition no_handlers (cfg : config) : bool :=
  match cf_handlers cfg with [] => true | _ => false end.

Definition default_cfg : config := mkCfg true "_serialize" "_ignore" [] [].
Definition empty_env : pyenv := mkEnv [] [].
