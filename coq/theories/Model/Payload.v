(** * Payload — model of the message-construction API of jsonrpclib/jsonrpc.py.

    Mirrors, function by function:
      - [payload_init]                      Payload.__init__          (version default, float(version))
      - [payload_request] [payload_notify]  Payload.request / notify
      - [payload_response] [payload_error]  Payload.response / error
      - [dump_plan] [dump_finish] [dump]    dump (argument validation, dispatch to Payload)
      - [dumps] [load] [loads]              dumps / load / loads over an abstract JSON codec
      - [fault_error] [fault_dump] [fault_response]   Fault.error / dump / response

    The request-id rule of [payload_request] is the one of the REPAIRED code
    (finding F8: ids 0 and 0.0 are numbers and are kept); the pinned variant
    and its refutation are in Examples/C14_examples.v.

    External components are explicit function arguments (Section variables):
      [fresh : nat -> str]      str(uuid.uuid4()), the k-th generated id; a counter is threaded
      [jc    : val -> res val]  jsonclass.dump(params, config=config)   (only called when use_jsonclass)
      [jl    : val -> res val]  jsonclass.load(data, config.classes)    (only called when use_jsonclass)
      [enc], [dec]              jdumps / jloads (the JSON backend) over an abstract type [text] of
                                JSON texts with the test [is_empty] for [data == ""]
    Hypotheses about them live in Proofs/PayloadProofs.v.

    Definitions only. *)

From JR Require Export PyOps.
From Coq Require Import DecimalString.

(** ** Small Python operations not in PyOps *)

(** [str(i)] for an int *)
Definition z_to_str (z : Z) : str := NilZero.string_of_int (Z.to_int z).

(** the float literal [1.1] of [self.version < 1.1], exactly (float.as_integer_ratio) *)
Definition f_1_1 : rat := (2476979795053773, 2251799813685248%positive).

(** a dyadic rational with at most 40 fractional bits and magnitude below 2^53: [n / d = k / 2^40] for an
    integer k, and [|n / d| < 2^53] (the bound is on the value, not on k).  Those among them that [float_str]
    below prints (integral, or halves below 10^15) are binary64 values.
    [float("1.1")] is not the rational 11/10, so such strings are outside the model. *)
Definition exact_binary (r : rat) : bool :=
  let '(n, d) := r in
  ((n * 2 ^ 40) mod (Zpos d) =? 0) && (Z.abs n <? 2 ^ 53 * Zpos d).

(** [float(version)]: PyOps.py_float, with decimal strings restricted to exactly representable ones *)
Definition version_float (v : val) : res rat :=
  match v with
  | VStr _ => do r <- py_float v; if exact_binary r then Ok r else Raise EUnmodelled
  | _ => py_float v
  end.

(** [str(self.version)] for a float: integral values below 10^16 print as "<int>.0",
    halves as "<int>.5"; every other float is outside the model *)
Definition float_str (r : rat) : res str :=
  let '(n, d) := r in
  if (n mod Zpos d =? 0) && (Z.abs (n / Zpos d) <? 10 ^ 16)
  then Ok (z_to_str (n / Zpos d) ++ ".0")
  else if ((2 * n) mod Zpos d =? 0) && (Z.abs (n / Zpos d) <? 10 ^ 15)
       then Ok ((if n <? 0 then "-" else "") ++ z_to_str (Z.abs n / Zpos d) ++ ".5")
       else Raise EUnmodelled.

Definition ge2 (r : rat) : bool := rat_leb (rat_of_Z 2) r.          (* self.version >= 2 *)
Definition lt11 (r : rat) : bool := rat_ltb r f_1_1.                (* self.version < 1.1 *)

(** [isinstance(x, (int, float))] excluding bool: the "number" of property C14 *)
Definition is_number (v : val) : bool :=
  match v with VInt _ | VFlt _ => true | _ => false end.

(** JSON-serialisable by the stdlib backend (tuples are written as arrays) *)
Fixpoint json_ok (v : val) : bool :=
  match v with
  | VNone | VBool _ | VInt _ | VFlt _ | VStr _ => true
  | VList l | VTuple l => forallb json_ok l
  | VDict m => forallb (fun kv => match fst kv with VStr _ => json_ok (snd kv) | _ => false end) m
  | _ => false
  end.

(** ** Configuration (the two fields this code reads) and the Payload object *)

Record pcfg := mkPcfg {
  pc_version : val;          (* config.version *)
  pc_jsonclass : bool        (* bool(config.use_jsonclass) *)
}.

Record payload := mkPayload {
  p_id : val;                (* self.id *)
  p_version : rat            (* self.version, a float *)
}.

(** Payload.__init__(rpcid, version)  — note: called by [dump] WITHOUT its config, so the
    fallback is the module-global DEFAULT configuration's version [dv]:
      if not version: version = config.version ; self.id = rpcid ; self.version = float(version) *)
Definition payload_init (dv : val) (rpcid version : val) : res payload :=
  let version := if truthy version then version else dv in
  do f <- version_float version;
  Ok (mkPayload rpcid f).

(** the id rule of Payload.request (repaired):
      if not self.id and not <self.id is an int/float other than a bool>: self.id = str(uuid.uuid4()) *)
Definition needs_fresh_id (i : val) : bool := negb (truthy i) && negb (is_number i).

(** [params or []] *)
Definition params_or_empty (params : val) : val := if truthy params then params else VList [].

Section Fresh.
  Variable fresh : nat -> str.

  (** Payload.request(method, params): returns the dictionary, the Payload afterwards
      (self.id may have been assigned) and the id counter *)
  Definition payload_request (p : payload) (method params : val) (n : nat) : res (val * payload * nat) :=
    if negb (is_string method) then Raise EValue
    else
      let '(p, n) := if needs_fresh_id (p_id p)
                     then (mkPayload (VStr (fresh n)) (p_version p), S n)
                     else (p, n) in
      let request := [(VStr "id", p_id p); (VStr "method", method)] in
      let request := if truthy params || lt11 (p_version p)
                     then dset request (VStr "params") (params_or_empty params)
                     else request in
      do request <- (if ge2 (p_version p)
                     then do s <- float_str (p_version p); Ok (dset request (VStr "jsonrpc") (VStr s))
                     else Ok request);
      Ok (VDict request, p, n).

  (** Payload.notify(method, params) *)
  Definition payload_notify (p : payload) (method params : val) (n : nat) : res (val * payload * nat) :=
    do (request, p, n) <- payload_request p method params n;
    match request with
    | VDict m =>
        if ge2 (p_version p) then Ok (VDict (ddel m (VStr "id")), p, n)
        else Ok (VDict (dset m (VStr "id") VNone), p, n)
    | _ => Raise EUnmodelled      (* unreachable: payload_request returns a dict *)
    end.
End Fresh.

(** Payload.response(result) *)
Definition payload_response (p : payload) (result : val) : res val :=
  let response := [(VStr "result", result); (VStr "id", p_id p)] in
  if ge2 (p_version p)
  then do s <- float_str (p_version p); Ok (VDict (dset response (VStr "jsonrpc") (VStr s)))
  else Ok (VDict (dset response (VStr "error") VNone)).

(** the inner error object of Payload.error *)
Definition error_object (code message data : val) : val :=
  let e := [(VStr "code", code); (VStr "message", message)] in
  VDict (match data with VNone => e | _ => dset e (VStr "data") data end).

(** Payload.error(code, message, data) *)
Definition payload_error (p : payload) (code message data : val) : res val :=
  do error <- payload_response p VNone;
  match error with
  | VDict m =>
      let m := if ge2 (p_version p) then ddel m (VStr "result") else dset m (VStr "result") VNone in
      Ok (VDict (dset m (VStr "error") (error_object code message data)))
  | _ => Raise EUnmodelled        (* unreachable: payload_response returns a dict *)
  end.

(** ** dump *)

(** the [params] argument of dump: a value, or a Fault instance (only faultCode, faultString, data are read) *)
Inductive dparams := PVal (v : val) | PFault (code msg data : val).

(** isinstance(params, (tuple, list, dict, Fault [, NoneType if is_response])) *)
Definition valid_params (is_response : bool) (p : dparams) : bool :=
  match p with
  | PFault _ _ _ => true
  | PVal (VTuple _) | PVal (VList _) | PVal (VDict _) => true
  | PVal VNone => is_response
  | PVal _ => false
  end.

(** what remains to be done once dump has validated its arguments *)
Inductive dump_plan_t :=
| DoneMsg (d : val)                                  (* an error or response dictionary: finished *)
| DoRequest (p : payload) (method params : val)      (* return payload.request(methodname, params) *)
| DoNotify (p : payload) (method params : val).      (* return payload.notify(methodname, params) *)

Section Dump.
  Variable jc : val -> res val.          (* jsonclass.dump(params, config=config) *)

  (** dump(params, methodname, rpcid, version, is_response, is_notify, config) up to the
      final call of Payload.request / notify (the only part that generates ids).
      [dv] is jsonrpclib.config.DEFAULT.version (see [payload_init]). *)
  Definition dump_plan (dv : val) (cfg : pcfg) (params : dparams)
             (methodname rpcid version is_response is_notify : val) : res dump_plan_t :=
    (* if not version: version = config.version *)
    let version := if truthy version then version else pc_version cfg in
    (* if not is_response and params is None: params = [] *)
    let params := match params with
                  | PVal VNone => if truthy is_response then params else PVal (VList [])
                  | _ => params
                  end in
    (* string method name with params that are no container / Fault *)
    if is_string methodname && negb (valid_params (truthy is_response) params) then Raise EType
    else
      do p <- payload_init dv rpcid version;
      match params with
      | PFault code msg data =>
          do d <- payload_error p code msg data; Ok (DoneMsg d)
      | PVal pv =>
          if negb (is_string methodname) && negb (truthy is_response) then Raise EValue
          else
            do pv <- (if pc_jsonclass cfg then jc pv else Ok pv);
            if truthy is_response then
              match rpcid with
              | VNone => Raise EValue                       (* a response must have an rpcid *)
              | _ => do d <- payload_response p pv; Ok (DoneMsg d)
              end
            else if truthy is_notify then Ok (DoNotify p methodname pv)
            else Ok (DoRequest p methodname pv)
      end.

  Variable fresh : nat -> str.

  Definition dump_finish (k : dump_plan_t) (n : nat) : res (val * nat) :=
    match k with
    | DoneMsg d => Ok (d, n)
    | DoRequest p m pv => do (d, _, n) <- payload_request fresh p m pv n; Ok (d, n)
    | DoNotify p m pv => do (d, _, n) <- payload_notify fresh p m pv n; Ok (d, n)
    end.

  (** dump: the dictionary and the id counter afterwards *)
  Definition dump (dv : val) (cfg : pcfg) (params : dparams)
             (methodname rpcid version is_response is_notify : val) (n : nat) : res (val * nat) :=
    do k <- dump_plan dv cfg params methodname rpcid version is_response is_notify;
    dump_finish k n.

  (** ** dumps / load / loads over the JSON backend *)
  Context {text : Type}.                 (* JSON texts (Python str); abstract so that the codec hypotheses
                                            have both the real backend and a trivial instance as models *)
  Variable is_empty : text -> bool.      (* data == "" *)
  Variable enc : val -> res text.        (* jdumps *)
  Variable dec : text -> res val.        (* jloads *)
  Variable jl : val -> res val.          (* jsonclass.load(data, config.classes) *)

  (** dumps(params, methodname, methodresponse, encoding, rpcid, version, notify, config) *)
  Definition dumps (dv : val) (cfg : pcfg) (params : dparams)
             (methodname methodresponse rpcid version notify : val) (n : nat) : res (text * nat) :=
    do (request, n) <- dump dv cfg params methodname rpcid version methodresponse notify n;
    do t <- enc request;
    Ok (t, n).

  (** load(data, config) *)
  Definition load (cfg : pcfg) (data : val) : res val :=
    match data with
    | VNone => Ok VNone
    | _ => if pc_jsonclass cfg then jl data else Ok data
    end.

  (** loads(data, config) *)
  Definition loads (cfg : pcfg) (data : text) : res val :=
    if is_empty data then Ok VNone
    else do result <- dec data; load cfg result.
End Dump.

(** ** Fault *)

Record fault := mkFault {
  f_code : val;        (* faultCode *)
  f_msg : val;         (* faultString *)
  f_rpcid : val;       (* rpcid *)
  f_cfg : pcfg;        (* config *)
  f_data : val         (* data *)
}.

(** Fault.error(): always the three members *)
Definition fault_error (f : fault) : val :=
  VDict [(VStr "code", f_code f); (VStr "message", f_msg f); (VStr "data", f_data f)].

(** [if rpcid: self.rpcid = rpcid]  — the Fault object afterwards *)
Definition fault_set_rpcid (f : fault) (rpcid : val) : fault :=
  if truthy rpcid then mkFault (f_code f) (f_msg f) rpcid (f_cfg f) (f_data f) else f.

Definition fault_params (f : fault) : dparams := PFault (f_code f) (f_msg f) (f_data f).

(** Fault.dump(rpcid, version): the result and the Fault object afterwards.
    dump(self, is_response=True, rpcid=self.rpcid, version=version, config=self.config)
    never reaches Payload.request (params is a Fault), hence no id supply here. *)
Definition fault_dump (dv : val) (f : fault) (rpcid version : val) : res val * fault :=
  let version := if truthy version then version else pc_version (f_cfg f) in
  let f := fault_set_rpcid f rpcid in
  (match dump_plan (fun v => Ok v) dv (f_cfg f) (fault_params f) VNone (f_rpcid f) version (VBool true) VNone with
   | Ok (DoneMsg d) => Ok d
   | Ok _ => Raise EUnmodelled       (* unreachable: params is a Fault *)
   | Raise e => Raise e
   end, f).

(** Fault.response(rpcid, version): the same through dumps *)
Definition fault_response {text : Type} (enc : val -> res text) (dv : val) (f : fault) (rpcid version : val) : res text * fault :=
  let '(r, f) := fault_dump dv f rpcid version in
  (do d <- r; enc d, f).
