(** * Transport — model of the client's connection layer under transport faults (property C19).

    Definitions only; proofs are in Proofs/TransportProofs.v.

    Layers, bottom up:

    - the scripted peer of the harness (harness/peers/scripted_peer.py): [fault], [peer_act],
      [peer_deliver] — one fault symbol is consumed per connection attempt / request exchange;
      an exhausted script means "healthy keep-alive" for ever;
    - http.client.HTTPConnection / HTTPResponse — a MODELLED COMPONENT (not jsonrpclib code,
      DESIGN.md 6.6): its behaviour relevant here is written down as the explicit transition
      table [h_request] / [h_getresponse] / [h_read] over the connection state [hconn]
      (socket with the peer's end state and the unread input, the attached unfinished response);
      the correspondence stage validates this table against the real stdlib on every run;
    - jsonrpclib/jsonrpc.py TransportMixIn.single_request  -> [single_request]
      xmlrpc.client.Transport.request (inherited one-retry loop, modelled) -> [transport_request]
      xmlrpc.client.Transport.make_connection / close, UnixTransport.make_connection -> [make_connection], [transport_close]
      ServerProxy._run_request ("" => None, else loads) -> [run_request]
      ServerProxy._request (check_for_errors; response["result"]) -> [proxy_call] (reuses Model/Client.v)
      TransportError(url, errcode, ...) -> [ETransport url status]. *)

From JR Require Export Client.
From Coq Require Import Ascii.

(** ** The fault alphabet of the property (statuses are parameters of the three status symbols) *)

Inductive fault :=
| FHealthy                    (* H: 200, Content-Length, JSON-RPC reply echoing the token; connection kept *)
| FHealthyClose               (* C: same reply, then the peer closes silently *)
| FRefuse                     (* R: connection refused *)
| FCloseNoReply               (* X: request read, FIN, no reply *)
| FReset                      (* T: request read, RST *)
| FStatusLen (s : Z)          (* L: status s with Content-Length and a body; connection kept *)
| FStatusNoLenClose (s : Z)   (* N: status s, body without length, then close *)
| FBodiless (s : Z)           (* B: status line and headers only, no length; connection kept by the peer *)
| FTruncated                  (* U: 200, Content-Length n, half of the body, then close *)
| FEmpty200                   (* Z: 200, Content-Length 0; connection kept *)
| FNonJson.                   (* J: 200, Content-Length, an HTML body; connection kept *)

Definition is_healthy (f : fault) : bool :=
  match f with FHealthy | FHealthyClose => true | _ => false end.

(** what the body text is, as far as [loads] can tell *)
Inductive body :=
| BReply (tok : val)          (* the JSON text of {"jsonrpc": "2.0", "result": tok, "id": ...} *)
| BPartial                    (* a strict prefix of such a text (never valid JSON: it is an unclosed object) *)
| BEmpty                      (* no bytes *)
| BHtml                       (* not JSON *)
| BErrText.                   (* the text sent with an error status *)

Record response := mkResp { r_status : Z; r_has_len : bool; r_body : body }.

Inductive peer_action :=
| PReply (r : response) (then_close : bool)
| PDrop                        (* FIN without a reply *)
| PReset.                      (* RST *)

(** the peer's reaction to a completely received request carrying [tok] *)
Definition peer_act (f : fault) (tok : val) : peer_action :=
  match f with
  | FHealthy => PReply (mkResp 200 true (BReply tok)) false
  | FHealthyClose => PReply (mkResp 200 true (BReply tok)) true
  | FRefuse => PDrop                       (* on a kept connection: dropped, symbol not consumed (see [h_request]) *)
  | FCloseNoReply => PDrop
  | FReset => PReset
  | FStatusLen s => PReply (mkResp s true BErrText) false
  | FStatusNoLenClose s => PReply (mkResp s false BErrText) true
  | FBodiless s => PReply (mkResp s false BEmpty) false
  | FTruncated => PReply (mkResp 200 true BPartial) true
  | FEmpty200 => PReply (mkResp 200 true BEmpty) false
  | FNonJson => PReply (mkResp 200 true BHtml) false
  end.

(** ** Connection state *)

Inductive pend := PeerOpen | PeerFin | PeerRst.        (* the peer's end of the socket *)

Inductive item :=
| IResponse (r : response)     (* a complete response (status line, headers, body) not yet looked at *)
| IBodyRest.                   (* body bytes of a response whose headers were already consumed *)

Record sock := mkSock { s_pend : pend; s_inbuf : list item }.

(** an http.client.HTTPConnection object: [h_sock = None] is a closed connection (auto_open
    reconnects on the next request); [h_pending] : a response is attached that has not been
    read to its end ([self.__response] with [isclosed()] false). *)
Record hconn := mkConn { h_sock : option sock; h_pending : bool }.

(** the transport: [t_cached] is [Transport._connection] (None / (None, None) / (host, connection);
    one proxy talks to one host, so the host comparison of make_connection always succeeds);
    [t_script] is what is left of the peer's script. *)
Record state := mkState { t_cached : option hconn; t_script : list fault }.

Definition init (script : list fault) : state := mkState None script.

Definition next_fault (script : list fault) : fault * list fault :=
  match script with [] => (FHealthy, []) | f :: r => (f, r) end.

Definition body_nonempty (r : response) : bool :=
  match r_body r with BEmpty => false | _ => true end.

Definition peer_deliver (f : fault) (tok : val) (s : sock) : sock :=
  match peer_act f tok with
  | PReply r cl => mkSock (if cl then PeerFin else s_pend s) (s_inbuf s ++ [IResponse r])
  | PDrop => mkSock PeerFin (s_inbuf s)
  | PReset => mkSock PeerRst []
  end.

(** ** http.client — modelled transition table *)

Definition ERemoteDisconnected := EOther "RemoteDisconnected".
Definition EConnReset := EOther "ConnectionResetError".
Definition EConnRefused := EOther "ConnectionRefusedError".
Definition ENotReady := EOther "ResponseNotReady".
Definition EBadStatus := EOther "BadStatusLine".

(** HTTPResponse.begin: statuses whose body length is forced to 0 *)
Definition no_body_status (s : Z) : bool :=
  (s =? 204) || (s =? 304) || ((100 <=? s) && (s <? 200)).

(** HTTPResponse.begin: HTTP/1.1, no "Connection: close", not chunked:
    will_close iff no length is known *)
Definition will_close (r : response) : bool :=
  negb (no_body_status (r_status r)) && negb (r_has_len r).

(** putrequest + putheader* + endheaders + send(body)   (send_request, send_content).
    [__state] is always idle here: every path that leaves a request half-made goes through
    HTTPConnection.close() (CannotSendRequest is therefore not in the table).
    - closed connection: connect(); the attempt consumes the next symbol; R refuses it;
    - open socket whose peer is alive: the request is delivered, the peer takes the next symbol
      (R: it drops the connection and leaves the symbol for the connection attempt that follows);
    - open socket whose peer has gone: the bytes are lost (when the kernel reports EPIPE /
      ECONNRESET at this point instead of at the read that follows, single_request and the retry
      loop treat it exactly like the RemoteDisconnected of [h_getresponse]; the model takes the latter).
      The only place where that choice could be seen is a gone peer together with a response
      still attached (the model answers ResponseNotReady; an EPIPE at send time would be retried):
      it needs a 204/304 status line followed by a length-less body and a close
      ([FStatusNoLenClose 204]), which is outside the property's alphabet ("5xx without length")
      and is not generated; the theorems hold for the model's choice. *)
Definition h_request (c : hconn) (script : list fault) (tok : val) : hconn * list fault * res unit :=
  match h_sock c with
  | None =>
      match next_fault script with
      | (FRefuse, rest) => (c, rest, Raise EConnRefused)
      | (f, rest) => (mkConn (Some (peer_deliver f tok (mkSock PeerOpen []))) (h_pending c), rest, Ok tt)
      end
  | Some s =>
      match s_pend s with
      | PeerOpen =>
          match next_fault script with
          | (FRefuse, _) => (mkConn (Some (mkSock PeerFin (s_inbuf s))) (h_pending c), script, Ok tt)
          | (f, rest) => (mkConn (Some (peer_deliver f tok s)) (h_pending c), rest, Ok tt)
          end
      | _ => (c, script, Ok tt)
      end
  end.

Definition closed_conn : hconn := mkConn None false.       (* HTTPConnection.close(): socket and response dropped *)

(** HTTPConnection.getresponse *)
Definition h_getresponse (c : hconn) : hconn * res response :=
  if h_pending c then (c, Raise ENotReady)                 (* a prior response is not finished *)
  else match h_sock c with
       | None => (c, Raise EUnmodelled)                    (* unreachable: a request was just sent *)
       | Some s =>
           match s_inbuf s with
           | IResponse r :: rest =>
               if will_close r then (closed_conn, Ok r)    (* the socket goes with the response *)
               else (mkConn (Some (mkSock (s_pend s) (if body_nonempty r then IBodyRest :: rest else rest))) true, Ok r)
           | IBodyRest :: _ => (c, Raise EBadStatus)       (* left-over body bytes where a status line should be *)
           | [] =>
               match s_pend s with
               | PeerFin => (closed_conn, Raise ERemoteDisconnected)   (* ConnectionError: getresponse closes *)
               | PeerRst => (closed_conn, Raise EConnReset)
               | PeerOpen => (c, Raise EUnmodelled)        (* would block for ever; the peer answers every request *)
               end
           end
       end.

(** reading the body of [r] to its end (parse_response's read loop, or response.read()):
    the response is finished; on a kept connection its body bytes leave the input *)
Definition h_read (c : hconn) (r : response) : hconn :=
  if will_close r then c
  else match h_sock c with
       | Some s => mkConn (Some (mkSock (s_pend s) (match s_inbuf s with IBodyRest :: rest => rest | l => l end))) false
       | None => mkConn None false
       end.

(** ** jsonrpclib / xmlrpc.client *)

(** make_connection: the cached connection, or a new (closed) HTTPConnection which is cached *)
Definition make_connection (st : state) : hconn :=
  match t_cached st with Some c => c | None => closed_conn end.

(** Transport.close() *)
Definition transport_close (script : list fault) : state := mkState None script.

Definition url_of (host handler : str) : str := host ++ handler.

(** TransportMixIn.single_request *)
Definition single_request (host handler : str) (st : state) (tok : val) : state * res body :=
  let c := make_connection st in
  match h_request c (t_script st) tok with
  | (_, script', Raise e) => (transport_close script', Raise e)            (* except: self.close(); raise *)
  | (c1, script', Ok _) =>
      match h_getresponse c1 with
      | (_, Raise e) => (transport_close script', Raise e)                 (* except: self.close(); raise *)
      | (c2, Ok r) =>
          if r_status r =? 200
          then (mkState (Some (h_read c2 r)) script', Ok (r_body r))       (* return self.parse_response(response) *)
          else
            let c3 := if r_has_len r then h_read c2 r else c2 in           (* if response.getheader("content-length", 0): response.read() *)
            (mkState (Some c3) script', Raise (ETransport (url_of host handler) (r_status r)))
      end
  end.

(** xmlrpc.client.Transport.request: retried once on RemoteDisconnected / ECONNRESET / ECONNABORTED / EPIPE *)
Definition retryable (e : exn) : bool :=
  match e with
  | EOther c => String.eqb c "RemoteDisconnected" || String.eqb c "ConnectionResetError"
  | _ => false
  end.

Definition transport_request (host handler : str) (st : state) (tok : val) : state * res body :=
  match single_request host handler st tok with
  | (st1, Raise e) => if retryable e then single_request host handler st1 tok else (st1, Raise e)
  | r => r
  end.

(** the reply object the healthy peer sends for [tok] *)
Definition reply_of (tok : val) : val :=
  VDict [(VStr "jsonrpc", VStr "2.0"); (VStr "result", tok); (VStr "id", VStr "id")].

(** ServerProxy._run_request after the transport returned: [if not response: return None],
    else loads (json, then jsonclass.load which is the identity on replies without __jsonclass__) *)
Definition run_request (b : body) : res val :=
  match b with
  | BEmpty => Ok VNone
  | BReply tok => Ok (reply_of tok)
  | BPartial | BHtml | BErrText => Raise EValue
  end.

(** ServerProxy._request: one call of the proxy with parameter [tok] *)
Definition proxy_call (host handler : str) (st : state) (tok : val) : state * res val :=
  match transport_request host handler st tok with
  | (st1, Raise e) => (st1, Raise e)
  | (st1, Ok b) => (st1, do r <- run_request b; proxy_result r)
  end.

(** a sequence of calls on one proxy *)
Fixpoint run_calls (host handler : str) (st : state) (toks : list val) : state * list (res val) :=
  match toks with
  | [] => (st, [])
  | tok :: rest =>
      let '(st1, o) := proxy_call host handler st tok in
      let '(st2, os) := run_calls host handler st1 rest in
      (st2, o :: os)
  end.

Definition outcomes (host handler : str) (script : list fault) (toks : list val) : list (res val) :=
  snd (run_calls host handler (init script) toks).

(** ** Predicates used by the theorems *)

(** the connection invariant: whatever is cached has no unread input, unless a response is
    still attached (then the next use raises ResponseNotReady and clears the connection:
    [C19_pending_cleared]); a closed connection has no response attached *)
Definition conn_clean (c : hconn) : bool :=
  match h_sock c with
  | None => negb (h_pending c)
  | Some s => h_pending c || match s_inbuf s with [] => true | _ => false end
  end.

Definition inv (st : state) : bool :=
  match t_cached st with None => true | Some c => conn_clean c end.

(** no response is left attached (the next request is not refused by http.client) *)
Definition idle (st : state) : bool :=
  match t_cached st with None => true | Some c => negb (h_pending c) end.

Definition is_raise {A} (r : res A) : bool := match r with Raise _ => true | Ok _ => false end.

Definition failures (os : list (res val)) : nat := length (filter is_raise os).

(** the state in which the last attempt of a call starts (after the transparent retry, if any) *)
Definition last_attempt_state (host handler : str) (st : state) (tok : val) : state :=
  match single_request host handler st tok with
  | (st1, Raise e) => if retryable e then st1 else st
  | _ => st
  end.

(** the response the client reads in an attempt started in [st] (inside the try block) *)
Definition exchange (st : state) (tok : val) : res response :=
  match h_request (make_connection st) (t_script st) tok with
  | (_, _, Raise e) => Raise e
  | (c1, _, Ok _) => snd (h_getresponse c1)
  end.

(** ** Observation interface for the correspondence stage *)

Definition c19_check (c : str * str * list fault * list val * list (res val)) : bool :=
  let '(host, handler, script, toks, obs) := c in
  list_eqb res_eqb (outcomes host handler script toks) obs.
