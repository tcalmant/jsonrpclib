(** * Future — model of [EventData] and [FutureResult] (jsonrpclib/threadpool.py, after the repair
    of finding F10) at source-line granularity.  Definitions only; proofs are in
    Proofs/FutureInv*.v and Proofs/FutureTheorems.v, the model of the pre-fix code and its refutation in Examples/C16_examples.v.

    One FutureResult, three kinds of threads (DESIGN.md 4/C16):
      - [TX]      the executor: one call of [execute(method, None, None)];
      - [TR i]    registrar [i]: one call of [set_callback(cb_i, extra_i)] (unboundedly many
                  registrars; re-registration before/after completion = several registrars, every
                  sequential order of them being one of the schedules; the code has no
                  thread-local state, so which thread calls does not matter);
      - [TO j]    observer [j]: one call of [done()], [result(timeout)] or [result()].
    One step = one executed source line that reads or writes a shared field, or one operation on
    the [threading.Event] / [threading.Lock] (atomic, trusted).  Lines that touch only locals are
    merged into the following step.  The pc constructors are the labels of the statement-text
    table in harness/props/c16.py. *)
From Coq Require Import List Bool Arith Lia.
From RecordUpdate Require Import RecordSet.
From JR Require Import Sched.
Import ListNotations RecordSetNotations.

(** ** The program: what the task does, what the callbacks do, what the observers call *)

(** objects are identified by numbers; [None] is Python's [None] *)
Inductive outcome := BRet (v : option nat) | BRaise (e : nat).     (* the task returns v / raises e *)
Inductive cbkind := KRet | KRaise | KArity.     (* callback returns / raises an Exception / takes no argument (TypeError) *)
Inductive okind := ODone | OResultT | OResult.   (* done() / result(timeout > 0) / result() *)

Record cfg := mkCfg { body : outcome; rkind : nat -> cbkind; obsk : nat -> okind }.

Definition out_data (o : outcome) : option nat := match o with BRet v => v | BRaise _ => None end.
Definition out_exc (o : outcome) : option nat := match o with BRet _ => None | BRaise e => Some e end.

Inductive thread := TX | TR (i : nat) | TO (j : nat).
Inductive move := Go (t : thread) | Fire (t : thread).   (* Fire t: the timed wait t is blocked in expires *)

(** ** Program counters = labels *)

(** execute (threadpool.py, FutureResult.execute; EventData.set / raise_exception inlined) *)
Inductive xpc :=
| X_body            (* result = method(..args, ..kwargs) *)
| X_store_data      (* EventData.set: self.__data = data       | raise_exception: self.__data = None *)
| X_store_exc       (* EventData.set: self.__exception = None  | raise_exception: self.__exception = exception *)
| X_event_set       (* self.__event.set() *)
| X_lock            (* finally: with self.__lock:  (acquire) *)
| X_set_completed   (* self.__completed = True *)
| X_read_cb         (* callback = self.__callback *)
| X_read_extra      (* extra = self.__extra *)
| X_unlock          (* end of the with block (release) *)
| X_notify          (* self.__notify(callback, extra): if callback is not None: try: callback(data, exception, extra) except Exception: log *)
| X_end.            (* execute returned, or re-raised the task's exception *)

(** set_callback *)
Inductive rpc :=
| R_lock            (* with self.__lock:  (acquire) *)
| R_store_cb        (* self.__callback = method *)
| R_store_extra     (* self.__extra = extra *)
| R_read_completed  (* completed = self.__completed *)
| R_unlock          (* end of the with block (release); then `if completed:` on the local *)
| R_notify          (* self.__notify(method, extra) *)
| R_end.

(** done / result (EventData.is_set / wait inlined) *)
Inductive opc :=
| O_start           (* done: self.__event.is_set()   | result: self.__event.wait(timeout)  (blocking; Fire = timeout) *)
| O_read_exc        (* EventData.wait: if self.__exception is None: *)
| O_reraise         (* raise self.__exception *)
| O_read_data       (* FutureResult.result: return self._done_event.data *)
| O_end.

(** ** Observables *)
Inductive obs :=
| ObsDone (b : bool)          (* done() returned b *)
| ObsRet (v : option nat)     (* result() returned v *)
| ObsRaise (e : nat)          (* result() raised the exception object e *)
| ObsTimeout                  (* result(timeout) raised OSError *)
| ObsTypeErr.                 (* `raise None` (never happens: theorem) *)

(** one notification attempt: callback [c_cb] called by thread [c_by] with (c_res, c_exc, c_extra);
    callbacks and extras are identified by the registrar that passed them *)
Record call := mkCall { c_cb : nat; c_by : thread; c_res : option nat; c_exc : option nat; c_extra : option nat }.

Inductive xresult := XReturned | XRaised (e : nat).

(** ** State *)
Record st := mkSt {
  (* EventData *)
  ev : bool; data : option nat; exc : option nat;
  (* FutureResult *)
  lock : option thread; completed : bool; cb : option nat; extra : option nat;
  (* executor: pc, locals `callback`, `extra`, how execute() ended *)
  xp : xpc; xcb : option nat; xextra : option nat; xout : option xresult;
  (* registrars: pc, local `completed` *)
  rp : nat -> rpc; rcomp : nat -> bool;
  (* observers: pc, local `result` of EventData.wait, what the call gave *)
  op : nat -> opc; owaited : nat -> bool; oobs : nat -> option obs;
  (* observable history: notification attempts (newest first), number of logged callback errors *)
  calls : list call; logged : nat;
  (* ghost: linearisation of registrations against completion, by order of lock acquisition.
     hdone: the executor has taken the lock; hpre / hpost: registrars that took the lock before /
     after the executor did, newest first *)
  hdone : bool; hpre : list nat; hpost : list nat
}.

#[export] Instance eta_st : Settable _ :=
  settable! mkSt <ev; data; exc; lock; completed; cb; extra; xp; xcb; xextra; xout; rp; rcomp;
                  op; owaited; oobs; calls; logged; hdone; hpre; hpost>.

Definition init : st :=
  mkSt false None None None false None None X_body None None None
       (fun _ => R_lock) (fun _ => false) (fun _ => O_start) (fun _ => false) (fun _ => None)
       [] 0 false [] [].

(** ** __notify(callback, extra): the call is attempted; an Exception raised by the callback (or the
    TypeError of a call with the wrong number of arguments) is caught and logged, nothing else changes *)
Definition raises (k : cbkind) : bool := match k with KRet => false | KRaise | KArity => true end.

Definition notify (c : cfg) (by_ : thread) (who : option nat) (x : option nat) (s : st) : st :=
  match who with
  | None => s
  | Some i => s <| calls := mkCall i by_ (data s) (exc s) x :: calls s |>
                <| logged := (if raises (rkind c i) then S (logged s) else logged s) |>
  end.

(** ** Transitions: one named function per label *)

(* executor *)
Definition x_body (c : cfg) (s : st) : option st := Some (s <| xp := X_store_data |>).
Definition x_store_data (c : cfg) (s : st) : option st := Some (s <| data := out_data (body c) |> <| xp := X_store_exc |>).
Definition x_store_exc (c : cfg) (s : st) : option st := Some (s <| exc := out_exc (body c) |> <| xp := X_event_set |>).
Definition x_event_set (c : cfg) (s : st) : option st := Some (s <| ev := true |> <| xp := X_lock |>).
Definition x_lock (c : cfg) (s : st) : option st :=
  match lock s with
  | None => Some (s <| lock := Some TX |> <| hdone := true |> <| xp := X_set_completed |>)
  | Some _ => None
  end.
Definition x_set_completed (c : cfg) (s : st) : option st := Some (s <| completed := true |> <| xp := X_read_cb |>).
Definition x_read_cb (c : cfg) (s : st) : option st := Some (s <| xcb := cb s |> <| xp := X_read_extra |>).
Definition x_read_extra (c : cfg) (s : st) : option st := Some (s <| xextra := extra s |> <| xp := X_unlock |>).
Definition x_unlock (c : cfg) (s : st) : option st := Some (s <| lock := None |> <| xp := X_notify |>).
(** how execute() ends: returns, or re-raises the task's exception (whatever the callback did) *)
Definition xcont (o : outcome) : xresult := match o with BRet _ => XReturned | BRaise e => XRaised e end.
Definition x_notify (c : cfg) (s : st) : option st :=
  Some (notify c TX (xcb s) (xextra s) s <| xout := Some (xcont (body c)) |> <| xp := X_end |>).

(* registrar i *)
Definition r_lock (c : cfg) (i : nat) (s : st) : option st :=
  match lock s with
  | None => Some (s <| lock := Some (TR i) |>
                    <| hpre := (if hdone s then hpre s else i :: hpre s) |>
                    <| hpost := (if hdone s then i :: hpost s else hpost s) |>
                    <| rp := upd (rp s) i R_store_cb |>)
  | Some _ => None
  end.
Definition r_store_cb (c : cfg) (i : nat) (s : st) : option st :=
  Some (s <| cb := Some i |> <| rp := upd (rp s) i R_store_extra |>).
Definition r_store_extra (c : cfg) (i : nat) (s : st) : option st :=
  Some (s <| extra := Some i |> <| rp := upd (rp s) i R_read_completed |>).
Definition r_read_completed (c : cfg) (i : nat) (s : st) : option st :=
  Some (s <| rcomp := upd (rcomp s) i (completed s) |> <| rp := upd (rp s) i R_unlock |>).
Definition r_unlock (c : cfg) (i : nat) (s : st) : option st :=
  Some (s <| lock := None |> <| rp := upd (rp s) i (if rcomp s i then R_notify else R_end) |>).
Definition r_notify (c : cfg) (i : nat) (s : st) : option st :=
  Some (notify c (TR i) (Some i) (Some i) s <| rp := upd (rp s) i R_end |>).

(* observer j *)
Definition o_start (c : cfg) (j : nat) (s : st) : option st :=
  match obsk c j with
  | ODone => Some (s <| oobs := upd (oobs s) j (Some (ObsDone (ev s))) |> <| op := upd (op s) j O_end |>)
  | OResultT | OResult =>
      if ev s then Some (s <| owaited := upd (owaited s) j true |> <| op := upd (op s) j O_read_exc |>)
      else None                                                     (* blocked in Event.wait *)
  end.
Definition o_fire (c : cfg) (j : nat) (s : st) : option st :=       (* the timeout of Event.wait expires *)
  match obsk c j, op s j with
  | OResultT, O_start =>
      if ev s then None
      else Some (s <| owaited := upd (owaited s) j false |> <| op := upd (op s) j O_read_exc |>)
  | _, _ => None
  end.
Definition o_read_exc (c : cfg) (j : nat) (s : st) : option st :=
  match exc s with
  | Some _ => Some (s <| op := upd (op s) j O_reraise |>)
  | None => if owaited s j then Some (s <| op := upd (op s) j O_read_data |>)
            else Some (s <| oobs := upd (oobs s) j (Some ObsTimeout) |> <| op := upd (op s) j O_end |>)
  end.
Definition o_reraise (c : cfg) (j : nat) (s : st) : option st :=
  Some (s <| oobs := upd (oobs s) j (Some (match exc s with Some e => ObsRaise e | None => ObsTypeErr end)) |>
          <| op := upd (op s) j O_end |>).
Definition o_read_data (c : cfg) (j : nat) (s : st) : option st :=
  Some (s <| oobs := upd (oobs s) j (Some (ObsRet (data s))) |> <| op := upd (op s) j O_end |>).

(** ** step only dispatches on the program counter of the chosen thread *)
Definition step_x (c : cfg) (s : st) : option st :=
  match xp s with
  | X_body => x_body c s | X_store_data => x_store_data c s | X_store_exc => x_store_exc c s
  | X_event_set => x_event_set c s | X_lock => x_lock c s | X_set_completed => x_set_completed c s
  | X_read_cb => x_read_cb c s | X_read_extra => x_read_extra c s | X_unlock => x_unlock c s
  | X_notify => x_notify c s | X_end => None
  end.

Definition step_r (c : cfg) (i : nat) (s : st) : option st :=
  match rp s i with
  | R_lock => r_lock c i s | R_store_cb => r_store_cb c i s | R_store_extra => r_store_extra c i s
  | R_read_completed => r_read_completed c i s | R_unlock => r_unlock c i s | R_notify => r_notify c i s
  | R_end => None
  end.

Definition step_o (c : cfg) (j : nat) (s : st) : option st :=
  match op s j with
  | O_start => o_start c j s | O_read_exc => o_read_exc c j s | O_reraise => o_reraise c j s
  | O_read_data => o_read_data c j s | O_end => None
  end.

Definition step (c : cfg) (s : st) (m : move) : option st :=
  match m with
  | Go TX => step_x c s
  | Go (TR i) => step_r c i s
  | Go (TO j) => step_o c j s
  | Fire (TO j) => o_fire c j s
  | Fire _ => None
  end.

(** all interleavings: [run (step c) sched init] for an arbitrary [sched : list move]
    (a timeout may expire at any moment, [Fire] being a move like any other; runs in which it expires
    only when no thread can step are among them) *)
Definition run_future (c : cfg) (sched : list move) : st := run (step c) sched init.

(** ** What the property speaks about *)
Definition body_finished (s : st) : bool := match xp s with X_body => false | _ => true end.
Definition done (s : st) : bool := ev s.                                       (* FutureResult.done() *)
Definition ncalls (s : st) (i : nat) : nat := length (filter (fun k => Nat.eqb (c_cb k) i) (calls s)).
(** a registration is owed a call iff it is the last one that took effect before completion, or it
    took effect after completion (order of the lock acquisitions) *)
Definition owed (s : st) (i : nat) : bool :=
  (match hpre s with j :: _ => Nat.eqb j i | [] => false end) || existsb (Nat.eqb i) (hpost s).
(** what a call made once the future is done must give *)
Definition expected_obs (c : cfg) (k : okind) : obs :=
  match k with
  | ODone => ObsDone true
  | _ => match body c with BRet v => ObsRet v | BRaise e => ObsRaise e end
  end.

(** ** Observation interface for the correspondence stage (harness/props/c16.py)
    everything is projected to numbers so that the generated case files stay small *)
Definition code_thread (t : thread) : nat := match t with TX => 0 | TR i => 1 + 2 * i | TO j => 2 + 2 * j end.
Definition code_opt (o : option nat) : nat := match o with None => 0 | Some n => S n end.
Definition code_x (p : xpc) : nat :=
  match p with X_body => 0 | X_store_data => 1 | X_store_exc => 2 | X_event_set => 3 | X_lock => 4 | X_set_completed => 5
          | X_read_cb => 6 | X_read_extra => 7 | X_unlock => 8 | X_notify => 9 | X_end => 10 end.
Definition code_r (p : rpc) : nat :=
  match p with R_lock => 20 | R_store_cb => 21 | R_store_extra => 22 | R_read_completed => 23 | R_unlock => 24
          | R_notify => 25 | R_end => 26 end.
Definition code_o (k : okind) (p : opc) : nat :=
  match p with O_start => (match k with ODone => 30 | _ => 31 end) | O_read_exc => 32 | O_reraise => 33
          | O_read_data => 34 | O_end => 35 end.
(** the label the thread of a move is about to execute (fired waits: 36) *)
Definition label_of (c : cfg) (s : st) (m : move) : nat :=
  match m with
  | Go TX => code_x (xp s) | Go (TR i) => code_r (rp s i) | Go (TO j) => code_o (obsk c j) (op s j)
  | Fire _ => 36
  end.
Definition code_obs (o : option obs) : list nat :=
  match o with
  | None => [0] | Some (ObsDone b) => [1; if b then 1 else 0] | Some (ObsRet v) => [2; code_opt v]
  | Some (ObsRaise e) => [3; e] | Some ObsTimeout => [4] | Some ObsTypeErr => [5]
  end.
(** the shared fields as one list: event, data, exception, lock owner, completed, callback, extra *)
Definition snap (s : st) : list nat :=
  [ (if ev s then 1 else 0); code_opt (data s); code_opt (exc s);
    (match lock s with None => 0 | Some t => S (code_thread t) end);
    (if completed s then 1 else 0); code_opt (cb s); code_opt (extra s) ].
Definition code_call (c : cfg) (k : call) : list nat :=
  match rkind c (c_cb k) with
  | KArity => [c_cb k; code_thread (c_by k)]            (* the attempt is visible only through the log *)
  | _ => [c_cb k; code_thread (c_by k); code_opt (c_res k); code_opt (c_exc k); code_opt (c_extra k)]
  end.
Definition code_xout (o : option xresult) : nat :=
  match o with None => 0 | Some XReturned => 1 | Some (XRaised e) => 2 + e end.

(** observation of a run of [sched] for [nr] registrars and [no] observers:
    (labels executed, shared state after every executed step),
    (final next label of every thread, notification attempts oldest first, logged errors),
    (executor result, what each observer got) *)
Definition observation : Type := (list nat * list (list nat)) * (list nat * list (list nat) * nat) * (nat * list (list nat)).

Definition c16_run (c : cfg) (nr no : nat) (sched : list move) : observation :=
  let s := run (step c) sched init in
  ((observed (step c) (label_of c) sched init, map snap (states (step c) sched init)),
   (code_x (xp s) :: map (fun i => code_r (rp s i)) (seq 0 nr) ++ map (fun j => code_o (obsk c j) (op s j)) (seq 0 no),
    map (code_call c) (rev (calls s)), logged s),
   (code_xout (xout s), map (fun j => code_obs (oobs s j)) (seq 0 no))).

Fixpoint leqb {A} (eq : A -> A -> bool) (a b : list A) : bool :=
  match a, b with
  | [], [] => true
  | x :: a', y :: b' => eq x y && leqb eq a' b'
  | _, _ => false
  end.
Definition ln_eqb := leqb Nat.eqb.
Definition lln_eqb := leqb ln_eqb.

Definition obs_eqb (a b : observation) : bool :=
  let '((l1, s1), (p1, k1, g1), (x1, o1)) := a in
  let '((l2, s2), (p2, k2, g2), (x2, o2)) := b in
  ln_eqb l1 l2 && lln_eqb s1 s2 && ln_eqb p1 p2 && lln_eqb k1 k2 && Nat.eqb g1 g2 && Nat.eqb x1 x2 && lln_eqb o1 o2.

Definition mk_cfg (b : outcome) (rk : list cbkind) (ok : list okind) : cfg :=
  mkCfg b (fun i => nth i rk KRet) (fun j => nth j ok ODone).

(** a generated case: program, schedule, and the observation of the implementation run *)
Definition c16_case : Type := (outcome * list cbkind * list okind) * list move * observation.

Definition c16_check (x : c16_case) : bool :=
  let '((b, rk, ok), sched, o) := x in
  obs_eqb (c16_run (mk_cfg b rk ok) (length rk) (length ok) sched) o.
