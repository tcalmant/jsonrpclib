(** Property C19 — transport faults are contained: no foreign results, and the proxy recovers.

    The model (Model/Transport.v) is the client's connection layer as a state machine:
    jsonrpclib's single_request / connection cache / _run_request / _request on top of an
    explicit transition table for http.client (a MODELLED component) and the scripted peer.
    Every theorem quantifies over all fault scripts, all token lists (any number of calls),
    all statuses and all host / handler strings. *)
From JR Require Import Transport TransportProofs.
From Coq Require Import Lia.

(** the invariant on every reachable state: the cached connection (if any) has no unread input
    unless a response is still attached to it, and a closed connection has none attached *)
Theorem C19_inv : forall host handler script toks,
  inv (fst (run_calls host handler (init script) toks)) = true.
Proof.
  intros. now apply (run_calls_preserves (fun st => inv st = true) _ _ (single_request_inv host handler)).
Qed.
Print Assumptions C19_inv.

(** ... and a connection with a response still attached is cleared by its next use, which raises *)
Theorem C19_pending_cleared : forall host handler st tok,
  inv st = true -> idle st = false ->
  (exists e, snd (proxy_call host handler st tok) = Raise e) /\
  t_cached (fst (proxy_call host handler st tok)) = None.
Proof. intros host handler st tok _. apply pending_call. Qed.
Print Assumptions C19_pending_cleared.

(** every call returns the result of its own request or raises: never another call's result
    (Foreign), never a value that is not its result (a silent None) *)
Theorem C19_own_or_exception : forall host handler script toks i tok,
  nth_error toks i = Some tok ->
  exists o, nth_error (outcomes host handler script toks) i = Some o /\
            (o = Ok tok \/ exists e, o = Raise e).
Proof. intros host handler script toks i tok Hn. unfold outcomes. now apply run_calls_own. Qed.
Print Assumptions C19_own_or_exception.

(** the response an attempt reads is the peer's answer to the request of this very attempt *)
Theorem C19_reply_is_own : forall st tok r,
  inv st = true -> exchange st tok = Ok r ->
  exists f cl, peer_act f tok = PReply r cl.
Proof. intros st tok r H E. destruct (exchange_reply st tok r H E) as [cl P]. eauto. Qed.
Print Assumptions C19_reply_is_own.

(** a non-200 reply read by the (last attempt of the) call surfaces as
    TransportError(host + handler, status) *)
Theorem C19_transport_error_fields : forall host handler st tok r,
  exchange (last_attempt_state host handler st tok) tok = Ok r -> r_status r <> 200 ->
  snd (proxy_call host handler st tok) = Raise (ETransport (host ++ handler) (r_status r)).
Proof.
  intros host handler st tok r E Hs. rewrite proxy_call_outcome, single_request_outcome, E.
  now destruct (Z.eqb_spec (r_status r) 200).
Qed.
Print Assumptions C19_transport_error_fields.

(** ... and a TransportError is raised for nothing else *)
Theorem C19_transport_error_only_non200 : forall host handler st tok u s,
  snd (proxy_call host handler st tok) = Raise (ETransport u s) ->
  u = (host ++ handler)%string /\ s <> 200 /\
  exists r, exchange (last_attempt_state host handler st tok) tok = Ok r /\ r_status r = s.
Proof.
  intros host handler st tok u s. rewrite proxy_call_outcome, single_request_outcome.
  destruct (exchange _ tok) as [r|e] eqn:E; [destruct (Z.eqb_spec (r_status r) 200)|]; cbn [bind]; intros H.
  - now apply call_result_no_terr in H.
  - injection H as <- <-. eauto.
  - injection H as ->. now apply exchange_no_terr in E.
Qed.
Print Assumptions C19_transport_error_only_non200.

(** recovery: at any point of any history at which the rest of the script is healthy
    (healthy keep-alive / healthy then close; an exhausted script is healthy),
    at most one of all further calls fails *)
Theorem C19_recovery_bound : forall host handler script toks1 toks2,
  let st := fst (run_calls host handler (init script) toks1) in
  forallb is_healthy (t_script st) = true ->
  (failures (snd (run_calls host handler st toks2)) <= 1)%nat.
Proof.
  intros host handler script toks1 toks2 st Hh. destruct toks2 as [|tok toks]; [cbn; lia|].
  destruct (recovery host handler st tok toks (C19_inv host handler script toks1) Hh) as (o & ->).
  unfold failures. cbn [filter]. rewrite no_failures. destruct (is_raise o); cbn; lia.
Qed.
Print Assumptions C19_recovery_bound.

(** ... and it can only be the first one: every later call returns its own result *)
Theorem C19_recovered_calls_succeed : forall host handler script toks1 tok toks2,
  let st := fst (run_calls host handler (init script) toks1) in
  forallb is_healthy (t_script st) = true ->
  exists o, snd (run_calls host handler st (tok :: toks2)) = o :: map Ok toks2.
Proof.
  intros host handler script toks1 tok toks2 st Hh.
  exact (recovery host handler st tok toks2 (C19_inv host handler script toks1) Hh).
Qed.
Print Assumptions C19_recovered_calls_succeed.

(** the script is consumed in order: what is left is [skipn k script] for some k
    (so "the rest of the script is healthy" is [forallb is_healthy (skipn k script) = true]) *)
Theorem C19_script_consumed_in_order : forall host handler script toks,
  exists k, t_script (fst (run_calls host handler (init script) toks)) = skipn k script.
Proof.
  intros. apply (run_calls_preserves _ _ _ (single_request_suffix script host handler)). now exists 0%nat.
Qed.
Print Assumptions C19_script_consumed_in_order.
