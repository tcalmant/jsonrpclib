(** Property C12 — servers isolate concurrent clients and always shut down cleanly.

    Part 1 (isolation) is about the handler-level model of Model/Server.v: one do_POST handler per
    accepted connection, interleaved under EVERY schedule (list of connection numbers), for EVERY number
    of connections, EVERY pool size and EVERY dispatcher that is a function of the request text.
    Part 2 (lifecycle) is about the lifecycle machine with socketserver's shutdown protocol as a
    modelled component, for EVERY API-legal history and EVERY schedule of the four kinds of threads. *)
From JR Require Import Server ServerProofs.
From Coq Require Import Lia.
Local Open Scope nat_scope.

(** a step of the handler of connection c changes only the state owned by connection c
    (and never what the client sent) *)
Theorem C12_handler_footprint :
  forall (eff : Type) (dispatch : string -> dres * list eff) (fault500 page404 : string)
         (pool : nat) (s : hstate eff) (c : nat) (s' : hstate eff),
  step dispatch fault500 page404 pool s c = Some s' ->
  length s' = length s
  /\ (forall c', c' <> c -> nth_error s' c' = nth_error s c')
  /\ (forall cn cn', nth_error s c = Some cn -> nth_error s' c = Some cn' -> c_req cn' = c_req cn).
Proof.
  intros eff dispatch fault500 page404 pool s c s' H.
  destruct (step_inv H) as (cn & cn' & En & Hs & ->).
  split; [apply length_set_nth|]. split.
  - intros c' Hc. now apply nth_error_set_nth_other.
  - intros x y Hx Hy. rewrite (nth_error_set_nth_same _ En) in Hy. rewrite En in Hx.
    inversion Hx; inversion Hy; subst. eapply hstep_facts; eauto.
Qed.
Print Assumptions C12_handler_footprint.

(** for every schedule: what was written back on connection c is the reply to the request of c;
    the dispatcher ran for it exactly once (not at all when the request never reaches it: bad path,
    unusable Content-Length), with exactly the invocations that request causes *)
Theorem C12_no_crosstalk :
  forall (eff : Type) (dispatch : string -> dres * list eff) (fault500 page404 : string)
         (reqs : list request) (pool : nat) (sched : list nat) (c : nat) (cn : conn eff),
  nth_error (run dispatch fault500 page404 pool sched (init reqs)) c = Some cn -> c_pc cn = HDone ->
  exists r, nth_error reqs c = Some r
            /\ c_wfile cn = Some (reply_of dispatch fault500 page404 r)
            /\ c_calls cn = (if dispatched r then 1 else 0)
            /\ c_effects cn = effects_of dispatch r.
Proof.
  intros eff dispatch fault500 page404 reqs pool sched c cn Hn Hd.
  destruct (run_complete Hn) as (r & Hr & Hc).
  unfold complete in Hc at 1. rewrite (hrun_done _ _ _ _ _ _ Hd) in Hc. exists r. split; [assumption|].
  destruct (hfinal_closed _ dispatch fault500 page404 r) as (_ & Hw & Hcalls & He). rewrite Hc. auto.
Qed.
Print Assumptions C12_no_crosstalk.

(** at every moment of every schedule the dispatcher has been entered at most once per connection
    (pool abstracted as "each enqueued handler is run by one worker, once": the hypothesis C09 discharges
    for ThreadPool) *)
Theorem C12_exactly_once_per_request :
  forall (eff : Type) (dispatch : string -> dres * list eff) (fault500 page404 : string)
         (reqs : list request) (pool : nat) (sched : list nat) (c : nat) (cn : conn eff),
  nth_error (run dispatch fault500 page404 pool sched (init reqs)) c = Some cn -> c_calls cn <= 1.
Proof.
  intros eff dispatch fault500 page404 reqs pool sched c cn Hn.
  destruct (run_complete Hn) as (r & Hr & Hc).
  pose proof (hrun_calls_mono _ dispatch fault500 page404 (rank (c_pc cn)) cn) as Hm.
  fold (complete dispatch fault500 page404 cn) in Hm. rewrite Hc in Hm.
  destruct (hfinal_closed _ dispatch fault500 page404 r) as (_ & _ & Hcalls & _). rewrite Hcalls in Hm.
  destruct (dispatched r); lia.
Qed.
Print Assumptions C12_exactly_once_per_request.

(** the outcome on connection c does not depend on what the other connections sent (malformed, failing,
    slow), on how many they are, on the pool size, or on the schedule *)
Theorem C12_fault_isolation :
  forall (eff : Type) (dispatch : string -> dres * list eff) (fault500 page404 : string)
         (reqs reqs' : list request) (pool pool' : nat) (sched sched' : list nat) (c : nat) (cn cn' : conn eff),
  nth_error reqs c = nth_error reqs' c ->
  nth_error (run dispatch fault500 page404 pool sched (init reqs)) c = Some cn -> c_pc cn = HDone ->
  nth_error (run dispatch fault500 page404 pool' sched' (init reqs')) c = Some cn' -> c_pc cn' = HDone ->
  c_wfile cn = c_wfile cn' /\ c_calls cn = c_calls cn' /\ c_effects cn = c_effects cn'.
Proof.
  intros eff dispatch fault500 page404 reqs reqs' pool pool' sched sched' c cn cn' He H1 D1 H2 D2.
  destruct (C12_no_crosstalk _ _ _ _ _ _ _ _ _ H1 D1) as (r & Hr & W1 & C1 & E1).
  destruct (C12_no_crosstalk _ _ _ _ _ _ _ _ _ H2 D2) as (r' & Hr' & W2 & C2 & E2).
  assert (r = r') by congruence. subst r'. repeat split; congruence.
Qed.
Print Assumptions C12_fault_isolation.

(** service continues: with at least one worker, as long as a connection is unanswered some handler can
    move, and every move brings that handler strictly closer to its end (ranking form) *)
Theorem C12_handlers_progress :
  forall (eff : Type) (dispatch : string -> dres * list eff) (fault500 page404 : string) (pool : nat) (s : hstate eff),
  1 <= pool ->
  (exists c cn, nth_error s c = Some cn /\ c_pc cn <> HDone) ->
  exists c s', step dispatch fault500 page404 pool s c = Some s'.
Proof.
  intros eff dispatch fault500 page404 pool s Hp (c & cn & En & Hnd).
  destruct (filter is_active s) as [|x r] eqn:Hf.
  - (* no handler is active: every worker is free, [cn] can move whether queued or not *)
    exists c. apply (step_enabled _ _ _ _ En Hnd). intros _. unfold active. rewrite Hf. exact Hp.
  - (* an active handler is neither queued nor done *)
    assert (Hx : In x (filter is_active s)) by (rewrite Hf; now left).
    apply filter_In in Hx as [Hin Hact]. apply In_nth_error in Hin as (c' & Hc'). exists c'.
    unfold is_active in Hact. apply (step_enabled _ _ _ _ Hc'); intros E; rewrite E in Hact; discriminate Hact.
Qed.
Print Assumptions C12_handlers_progress.

Theorem C12_handler_step_ranks :
  forall (eff : Type) (dispatch : string -> dres * list eff) (fault500 page404 : string)
         (pool : nat) (s : hstate eff) (c : nat) (s' : hstate eff),
  step dispatch fault500 page404 pool s c = Some s' ->
  exists cn cn', nth_error s c = Some cn /\ nth_error s' c = Some cn' /\ rank (c_pc cn') < rank (c_pc cn).
Proof.
  intros eff dispatch fault500 page404 pool s c s' H.
  destruct (step_inv H) as (cn & cn' & En & Hs & ->).
  exists cn, cn'. split; [assumption|]. split; [eapply nth_error_set_nth_same; eauto | eapply hstep_facts; eauto].
Qed.
Print Assumptions C12_handler_step_ranks.

(** no call of a legal history blocks forever, ranking form: in every reachable state in which a call has
    not returned, some thread — the caller, the serving loop, an in-flight handler, a pool worker — can
    move, and every move of every thread decreases [lmeasure].  Hence every maximal run is finite and ends
    with all calls returned, provided enabled threads are eventually scheduled (in-flight handlers finish). *)
Theorem C12_close_terminates :
  forall (k : kind) (h : list op) (sched : list actor),
  legal k h = true ->
  let s := lrun k sched (linit h) in
  (main_finished s = false -> exists a s', lstep k s a = Some s')
  /\ (forall a s', lstep k s a = Some s' -> lmeasure s' < lmeasure s).
Proof.
  intros k h sched Hl s. split; [|intros a s'; apply measure_decreases].
  apply progress_inv. apply LInv_run. now apply LInv_init.
Qed.
Print Assumptions C12_close_terminates.

(** executable corollary: the deterministic executor used by the correspondence stage ([lexec]: the caller moves
    whenever it can, the other threads only when it is blocked) returns from every call *)
Theorem C12_all_calls_return :
  forall (k : kind) (h : list op), legal k h = true ->
  main_finished (lexec serving_flag (S (lmeasure (linit h))) k (linit h)) = true.
Proof. intros k h Hl. apply lexec_finishes; [now apply LInv_init | lia]. Qed.
Print Assumptions C12_all_calls_return.

(** after ServerClose has returned: the listening socket is closed, the serving thread has left its loop and,
    for the pooled server, the pool is stopped and none of its workers is alive *)
Theorem C12_closed_state :
  forall (k : kind) (h : list op) (sched : list actor),
  legal k h = true ->
  let s := lrun k sched (linit h) in
  close_returned s = true ->
  socket_open s = false /\ loop_running s = false
  /\ (is_pooled k = true -> pool_running s = false /\ idle s + in_flight s = 0).
Proof.
  intros k h sched Hl s Hc. pose proof (LInv_run k sched _ (LInv_init k h Hl)) as (_ & HI & HW). fold s in HI, HW.
  destruct (closed_fin k s HI Hc) as (Hso & Hlr & Hp). auto.
Qed.
Print Assumptions C12_closed_state.
