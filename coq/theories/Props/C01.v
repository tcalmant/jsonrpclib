(** Property C01 — end-to-end call transparency across versions, transports and call styles.
    (Model: Model/EndToEnd.v, the value-level composition of the Payload (C14), Dispatch (C02-C05)
    and Client (C06) models).

    Quantification: EVERY callable table ([body], [sigs]), id generator [fresh] that never yields the
    empty string, server version [srvf], registry [reg] in which the method name [m] (any non-empty string:
    identifiers, dotted, Unicode, with spaces) is a registered function [f], notification pool or not,
    class translation on or off on either side, client Config.version and ServerProxy(version=...) in
    {absent, 1.0, 2.0}, EVERY positional list / keyword map of JSON values [a] that binds to [f], EVERY return
    value that is JSON up to tuples, EVERY id counter and prior History.

    Server class and transport do not appear: the model treats a byte-faithful transport as the identity on
    texts; that the loopback, TCP, Unix-socket and pooled paths are byte-faithful is what the correspondence
    stage checks on the real code (PARTIAL in that respect, see MANIFEST level_note).  MultiCall batches of
    registered functions have the general theorem C01_batch; dotted instance paths are in the executable
    model and in the correspondence, without a general theorem here. *)
From JR Require Import Payload Client Dispatch EndToEnd EndToEndProofs.

(** a plain / dotted / Unicode-named call: the callable is entered exactly once with the arguments
    (as JSON parses them), the proxy returns exactly its return value up to JSON normalisation, and
    the History gains exactly the request and the response that were exchanged *)
Theorem C01_single_call : forall body sigs fresh dv, (forall n, fresh n <> ""%string) ->
  forall srvf reg pool sjc c m f a n h v,
    ver_ok (pc_version (cl_cfg c)) -> carg_ok (cl_version c) ->
    m <> ""%string -> lookup m (r_funcs reg) = Some f ->
    args_json a = true ->
    call_binds (sigs f) (entered a) = true ->
    body f (entered a) = Return v -> dumpable v = true ->
    proxy_call body sigs fresh dv srvf (mkSrv reg pool sjc) None c m a n h
    = (Ok (norm v), [EvCall f (entered a)],
       add_response (add_request h (request_value (req_v2 c) m a (fresh n)))
                    (Some (resp_obj (reply_form (req_v2 c) srvf) (VStr (fresh n)) (norm v))),
       S n).
Proof. exact single_call. Qed.
Print Assumptions C01_single_call.

(** a client-side notification call returns None; the callable runs once (or one task is handed to the
    notification pool), whatever it does; the response text is empty.
    (Proved here, on the pattern of EndToEndProofs.single_call: that one stands in Proofs/ because
    call_sequence uses it, its notification twin has no other user.) *)
Theorem C01_single_notify : forall body sigs fresh dv srvf reg pool sjc c m f a n h,
    ver_ok (pc_version (cl_cfg c)) -> carg_ok (cl_version c) ->
    m <> ""%string -> lookup m (r_funcs reg) = Some f ->
    args_json a = true ->
    call_binds (sigs f) (entered a) = true ->
    proxy_notify body sigs fresh dv srvf (mkSrv reg pool sjc) None c m a n h
    = (Ok VNone,
       (if pool then [EvEnqueue None m (entered a) (Some (reply_form (req_v2 c) srvf))] else [EvCall f (entered a)]),
       add_response (add_request h (notify_value (req_v2 c) m a)) None,
       S n).
Proof.
  intros body sigs fresh dv srvf reg pool sjc c m f a n h Hcv Hca Hm Hf Ha Hb.
  destruct (params_json a _ (or_introl eq_refl) Ha) as (Hd & Hvp & Ht & Hn).
  destruct (dump_entry fresh dv (cl_cfg c) (cl_version c) (call_params a) m true n (req_v2 c)
                       (resolved_version_client dv c Hcv Hca) Hvp Hd) as (P0 & HP0 & HPn & E).
  unfold proxy_notify, proxy_request. rewrite E, notify_value_notif_dict. rewrite Hn in HPn. rewrite Ht in *.
  pose proof (core_notify body sigs (req_v2 c) (truthy (entered a) || negb (req_v2 c))
                          srvf reg pool sjc c m f n h P0 (entered a)) as C.
  (* what core_notify hands to the callable, [if wp then entered a else VList []], is [entered a] *)
  rewrite entered_or_empty in C.
  exact (C Hm Hf                  (* the name is not empty and is registered *)
           HP0 HPn                (* the "params" member is JSON data that parses to [entered a], *)
           (entered_container a)  (* which is a list or a dict *)
           Hb).                   (* the callable binds *)
Qed.
Print Assumptions C01_single_notify.

(** any sequence of calls on one proxy: results, invocations and History are those of the calls, in order *)
Theorem C01_history_sequence : forall body sigs fresh dv, (forall n, fresh n <> ""%string) ->
  forall srvf srv c cs n h,
    ver_ok (pc_version (cl_cfg c)) -> carg_ok (cl_version c) ->
    Forall (good body sigs srv) cs ->
    run_calls body sigs fresh dv srvf srv c cs n h
    = (map (fun s => Ok (norm (cs_v s))) cs,
       map (fun s => EvCall (cs_f s) (entered (cs_a s))) cs,
       expected_history fresh srvf c cs n h,
       (n + length cs)%nat).
Proof. exact call_sequence. Qed.
Print Assumptions C01_history_sequence.

Theorem C01_history_lengths : forall body sigs fresh dv, (forall n, fresh n <> ""%string) ->
  forall srvf srv c cs n h,
    ver_ok (pc_version (cl_cfg c)) -> carg_ok (cl_version c) -> Forall (good body sigs srv) cs ->
    let h' := snd (fst (run_calls body sigs fresh dv srvf srv c cs n h)) in
    length (h_requests h') = (length (h_requests h) + length cs)%nat /\
    length (h_responses h') = (length (h_responses h) + length cs)%nat.
Proof.
  intros body sigs fresh dv Hfr srvf srv c cs n h Hv Ha Hg. cbn zeta.
  rewrite (call_sequence body sigs fresh dv Hfr) by assumption. apply expected_history_lengths.
Qed.
Print Assumptions C01_history_lengths.

(** a MultiCall batch of registered functions (calls and notifications interleaved): every job enters its
    callable once, in job order (a notification on a pooled dispatcher is handed to the pool once); the
    results are those of the non-notification jobs, in job order; the History gains one request text (the
    array of the jobs' 2.0 requests) and one response text *)
Theorem C01_batch : forall body sigs fresh dv, (forall n, fresh n <> ""%string) ->
  forall srvf reg pool sjc c mcfg js n h,
    js <> [] -> Forall (good_job body sigs reg) js ->
    multicall body sigs fresh dv srvf (mkSrv reg pool sjc) None c mcfg (map js_job js) n h
    = (Some (Ok (job_results js)), map (job_event srvf pool) js,
       add_response (add_request h (VList (job_values fresh js n)))
                    (match job_responses fresh srvf sjc js n with [] => None | os => Some (VList (map norm os)) end),
       (n + length js)%nat).
Proof. exact batch_call. Qed.
Print Assumptions C01_batch.
