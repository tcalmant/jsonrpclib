(** Property C11 — join() means finished; after stop() nothing runs and every worker exits;
    start()/stop() are idempotent.  Same quantification as Props/C09.v.

    "stop() always returns" is a termination claim.  Proved here is its safety half, for every
    reachable state of every schedule: the pool never deadlocks (C11_stop_never_blocked,
    C11_stop_no_deadlock, C11_thread_progress_worker, C11_thread_progress_client): inside stop() the
    controlling thread can always take a step, or the holder of the lock / queue mutex it waits for
    can; the only waits of stop() that are not bounded by the pool itself are thread.join(3) (which
    times out) on a worker that, by C11_thread_progress_worker, can itself always make progress, and
    clear()'s queue.join(), which finds nothing left to wait for.  What remains of the claim is fair
    scheduling and the termination of the task bodies (a body that never returns keeps its worker,
    and stop(), for ever: outside the statement).  The implementation-side oracle checks that stop()
    returns under every explored schedule (the scheduler detects deadlock exactly). *)
From JR Require Import PoolInvDefs PoolInvA PoolInvE PoolInvH PoolSafety PoolLifecycle PoolInvD PoolProgress PoolRank PoolReach C09.

(** the two join monitors never fire: join() never returned True while a task enqueued before
    the call was neither done nor dropped by stop(); it never returned False unless it was
    timed and work was outstanding when it returned *)
Theorem C11_join_sound : forall mx mn progs sched,
  valid_cfg mx mn ->
  join_bad (run sched (init mx mn progs)) = false /\ joinf_bad (run sched (init mx mn progs)) = false.
Proof. intros mx mn progs sched Hv. exact (i_mon _ (reachable_inv1 mx mn progs sched Hv)). Qed.
Print Assumptions C11_join_sound.

(** what join() tests: when unfinished_tasks is 0 every accepted task is done or was dropped by stop() *)
Theorem C11_drained_means_settled : forall mx mn progs sched,
  valid_cfg mx mn ->
  let s := run sched (init mx mn progs) in
  unfinished s <= 0 -> forall t, (t < next_task s)%nat -> settled s t = true.
Proof.
  intros mx mn progs sched Hv s. pose proof (reachable_inv1 mx mn progs sched Hv : Inv1 s) as I.
  exact (unf_zero_settled s (i_unf _ I) (i_place _ I)).
Qed.
Print Assumptions C11_drained_means_settled.

(** after stop() has returned (until start() is called again) no task body begins and every worker is dead: the
    statement of C09_no_run_after_stop, which C11 claims as well *)
Theorem C11_no_start_after_stop_workers_exit : forall mx mn progs sched,
  valid_cfg mx mn ->
  let s := run sched (init mx mn progs) in
  late_start s = false /\ (stop_done s = true -> forall w, alive (ws s w) = false).
Proof. exact C09_no_run_after_stop. Qed.
Print Assumptions C11_no_start_after_stop_workers_exit.

(** a restarted pool obeys every invariant of a fresh one: all of them hold in every reachable state,
    in particular after any number of stop()/start() cycles *)
Theorem C11_restart_fresh : forall mx mn progs sched,
  valid_cfg mx mn -> Inv2 (run sched (init mx mn progs)).
Proof. exact reachable_inv2. Qed.
Print Assumptions C11_restart_fresh.

(** start() on a running pool / stop() on a stopped pool: one read of the flag, then return *)
Theorem C11_start_idempotent : forall s, cpc (cs s 0%nat) = CSTTest -> stopped s = false ->
  step s (TC 0%nat) false = Some (cret s 0%nat).
Proof. intros s Hpc Hst. cbn [step]. unfold cstep. rewrite Hpc, Hst. reflexivity. Qed.
Print Assumptions C11_start_idempotent.
Theorem C11_stop_idempotent : forall s, cpc (cs s 0%nat) = CSPTest -> stopped s = true ->
  step s (TC 0%nat) false = Some (cret s 0%nat).
Proof. intros s Hpc Hst. cbn [step]. unfold cstep. rewrite Hpc, Hst. reflexivity. Qed.
Print Assumptions C11_stop_idempotent.
Theorem C11_return_changes_no_pool_state : forall s c,
  let s' := cret s c in
  stopped s' = stopped s /\ q s' = q s /\ unfinished s' = unfinished s /\ lock s' = lock s /\ threads s' = threads s /\
  nb_threads s' = nb_threads s /\ nb_active s' = nb_active s /\ nb_pending s' = nb_pending s /\ ws s' = ws s /\
  next_w s' = next_w s /\ next_task s' = next_task s.
Proof. intros s c. unfold cret. destruct (next_call c (cprog (cs s c))). cbn. repeat split; reflexivity. Qed.
Print Assumptions C11_return_changes_no_pool_state.

Theorem C11_stop_never_blocked : forall mx mn progs sched,
  valid_cfg mx mn ->
  let s := run sched (init mx mn progs) in
  stop_region (ctl s) = true -> progress s (TC 0%nat).
Proof.
  intros mx mn progs sched Hv s. apply stop_never_blocked; [apply reachable_inv2, Hv | apply (v_lockpos (Inv_reachable mx mn progs sched Hv))].
Qed.
Print Assumptions C11_stop_never_blocked.

Theorem C11_stop_no_deadlock : forall mx mn progs sched,
  valid_cfg mx mn ->
  let s := run sched (init mx mn progs) in
  stop_region (ctl s) = true -> exists u f s', step s u f = Some s'.
Proof.
  intros mx mn progs sched Hv s Hr. exact (progress_some_step _ _ (C11_stop_never_blocked mx mn progs sched Hv Hr)).
Qed.
Print Assumptions C11_stop_no_deadlock.

(** every started worker that has not exited makes progress (towards the exit stop() waits for) *)
Theorem C11_thread_progress_worker : forall mx mn progs sched,
  valid_cfg mx mn ->
  let s := run sched (init mx mn progs) in
  forall w, alive (ws s w) = true -> wpc (ws s w) <> WNew -> progress s (TW w).
Proof.
  intros mx mn progs sched Hv s. apply worker_progress; [apply reachable_inv2, Hv | apply (v_lockpos (Inv_reachable mx mn progs sched Hv))].
Qed.
Print Assumptions C11_thread_progress_worker.

(** every call of every client makes progress; the only exception is the client's own untimed join()
    while work is outstanding (it waits for the workers, see C11_join_on_running_pool_not_stuck) *)
Theorem C11_thread_progress_client : forall mx mn progs sched,
  valid_cfg mx mn ->
  let s := run sched (init mx mn progs) in
  forall c, cpc (cs s c) <> CDone -> (cpc (cs s c) = CJQJoin JOp /\ 0 < unfinished s) \/ progress s (TC c).
Proof.
  intros mx mn progs sched Hv s. apply client_progress; [apply reachable_inv2, Hv | apply (v_lockpos (Inv_reachable mx mn progs sched Hv))].
Qed.
Print Assumptions C11_thread_progress_client.

(** join() on a running pool at rest with work outstanding: some thread (a worker, or the creator of a
    worker that is not started yet) can take a step *)
Theorem C11_join_on_running_pool_not_stuck : forall mx mn progs sched,
  valid_cfg mx mn ->
  let s := run sched (init mx mn progs) in
  start_done s = true -> (forall c, ewin (cpc (cs s c)) = false) -> 0 < unfinished s ->
  exists u f s', step s u f = Some s'.
Proof.
  intros mx mn progs sched Hv s. pose proof (Inv_reachable mx mn progs sched Hv : Inv mx mn s) as R.
  exact (join_on_running_pool_not_stuck s (v_inv2 R) (v_lockpos R) (v_growth R)).
Qed.
Print Assumptions C11_join_on_running_pool_not_stuck.

(** "every worker thread terminates on its own": once stop() has set the flag, every step of a worker strictly
    decreases its rank (its distance to the exit, at most 22), so it takes at most 22 more steps of its own;
    and no step of any other thread increases the rank of a created worker.  With C11_thread_progress_worker
    (it can always step, or the holder of what it waits for can) only fair scheduling is left. *)
Theorem C11_worker_exits_in_bounded_steps : forall fs s w s',
  stopped s = true -> wsteps s w fs = Some s' ->
  (length fs + wrank (wpc (ws s' w)) <= wrank (wpc (ws s w)))%nat /\ (wrank (wpc (ws s w)) <= 22)%nat.
Proof. intros fs s w s' Hst H. split; [eapply worker_exits_within_rank; eassumption | apply wrank_le]. Qed.
Print Assumptions C11_worker_exits_in_bounded_steps.

Theorem C11_worker_rank_monotone : forall mx mn progs sched t f s' w,
  valid_cfg mx mn ->
  let s := run sched (init mx mn progs) in
  stopped s = true -> step s t f = Some s' -> wpc (ws s w) <> WNone ->
  (wrank (wpc (ws s' w)) <= wrank (wpc (ws s w)))%nat.
Proof.
  intros mx mn progs sched t f s' w Hv s Hst H Hn.
  eapply worker_rank_monotone; try eassumption. apply (i_created _ (reachable_inv1 mx mn progs sched Hv)).
Qed.
Print Assumptions C11_worker_rank_monotone.

(** stop() itself: every one of its own steps strictly decreases (phase, position in the phase) in the
    lexicographic order, except the edge that goes back to poll the same worker again after thread.join(3)
    returned; a worker that has exited is dropped from the list at the next poll *)
Theorem C11_stop_steps_decrease : forall s f s',
  stop_region (ctl s) = true \/ ctl s = CSPSet -> step s (TC 0%nat) f = Some s' ->
  lex_lt (crank s') (crank s) \/ (exists ths, ctl s = CSPAlive2 ths /\ ctl s' = CSPAlive ths).
Proof.
  intros s f s' Hr H. apply step_Step in H. inversion H as [|c l p jc s1 Ec HS]; subst.
  unfold crank, lex_lt, ctl in *. rewrite Ec in *.
  destruct HS; try (destruct Hr as [Hr|Hr]; discriminate Hr).
  all: simp; rewrite upd_same; cbn [cpc fst snd].
  (* to a fixed label: the phase goes down, or the position does (clear() has taken an item: Hq) *)
  all: try (left; cbn [cphase cinner]; simp; rewrite ?Hq; cbn [length]; lia).
  (* the loop heads of stop(), CSPLock and CSPPut to spput, CSPUnlock and CSPAlive (worker dead) to spalive: one sentinel,
     one worker less, or the next phase *)
  1-4: label_cases; left; cbn [cphase cinner length]; lia.
  - (* thread.join(3) has returned: the same worker is polled again *) right. eexists. split; reflexivity.
  - (* stop() returns *) left. rewrite (entry_phase _ _ (proj1 Hret)). cbn. lia.
  - (* the join of clear() *) destruct k; [destruct Hr; discriminate|]. left. cbn. lia.
Qed.
Print Assumptions C11_stop_steps_decrease.
