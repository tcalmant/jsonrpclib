(** Property C03 — responses echo the request id; batches answer one-to-one and in order.
    [body]/[sigs]: arbitrary registered callables; [srvf]: server version (1.0 / 2.0);
    [srv]: registry, notification pool, class translation; [dm]: custom dispatch function. *)
From JR Require Import Dispatch DispatchProofs.

(** every response object carries the id of the entry that caused it, as the same value —
    or null when the entry has no usable id ([usable_id]) *)
Theorem C03_id_echo : forall body sigs srvf srv dm e o log,
  answer_entry body sigs srvf srv dm e = (Some o, log) -> reply_id o = Some (usable_id e).
Proof. exact id_echo. Qed.
Print Assumptions C03_id_echo.

(** an entry is answered iff it is not a well-formed notification *)
Theorem C03_answered_iff : forall body sigs srvf srv dm e,
  fst (answer_entry body sigs srvf srv dm e) = None <-> is_notification_entry e = true.
Proof. exact answer_entry_none_iff. Qed.
Print Assumptions C03_answered_iff.

(** the responses of a batch are the answers of its entries, in entry order (all batch lengths) *)
Theorem C03_batch_answers : forall body sigs srvf srv dm entries,
  fst (batch body sigs srvf srv dm entries)
  = flat_map (fun e => opt_list (fst (answer_entry body sigs srvf srv dm e))) entries.
Proof. exact batch_answers. Qed.
Print Assumptions C03_batch_answers.

(** exactly one response per entry that expects one (calls, failing calls, unknown methods,
    invalid entries), in the order of the entries, each with its own entry's id *)
Theorem C03_batch_one_to_one : forall body sigs srvf srv dm entries,
  map reply_id (fst (batch body sigs srvf srv dm entries))
  = map (fun e => Some (usable_id e)) (filter expects_answer entries).
Proof. exact batch_one_to_one. Qed.
Print Assumptions C03_batch_one_to_one.

(** the array sent back for a batch with at least one answerable entry holds exactly those answers *)
Theorem C03_batch_reply : forall body sigs srvf srv dm entries,
  results_dumpable body (sv_jsonclass srv) ->
  filter expects_answer entries <> [] ->
  marshaled_dispatch body sigs srvf srv dm (PValue (VList entries))
  = Ok (RMany (fst (batch body sigs srvf srv dm entries)), snd (batch body sigs srvf srv dm entries)).
Proof.
  intros body sigs srvf srv dm es R Hne. rewrite marshaled_batch by (intros ->; now apply Hne).
  rewrite (batch_dumpable body sigs srvf srv dm es R).
  pose proof (batch_length body sigs srvf srv dm es) as L.
  destruct (fst (batch body sigs srvf srv dm es)); [|reflexivity].
  destruct (filter expects_answer es); [congruence|discriminate].
Qed.
Print Assumptions C03_batch_reply.

(** a batch that produces no response yields an empty body rather than an empty array *)
Theorem C03_empty_batch_body : forall body sigs srvf srv dm entries,
  entries <> [] -> forallb is_notification_entry entries = true ->
  exists log, marshaled_dispatch body sigs srvf srv dm (PValue (VList entries)) = Ok (REmpty, log).
Proof.
  intros body sigs srvf srv dm es Hne Hall. rewrite marshaled_batch by assumption.
  pose proof (batch_length body sigs srvf srv dm es) as L.
  assert (F : filter expects_answer es = []).
  { apply filter_none. intros e He. unfold expects_answer. now rewrite (forallb_In Hall He). }
  rewrite F in L. destruct (fst (batch body sigs srvf srv dm es)); [cbn; eauto|discriminate].
Qed.
Print Assumptions C03_empty_batch_body.

(** positions: the i-th response answers the i-th answerable entry (what MultiCall relies on;
    the client half is C06_same_at_every_batch_position) *)
Theorem C03_multicall_positions : forall body sigs srvf srv dm entries i,
  option_map reply_id (nth_error (fst (batch body sigs srvf srv dm entries)) i)
  = option_map (fun e => Some (usable_id e)) (nth_error (filter expects_answer entries) i).
Proof. intros. rewrite <- !nth_error_map. now rewrite batch_one_to_one. Qed.
Print Assumptions C03_multicall_positions.

(** a single (non-batch) request that expects an answer is answered by exactly one object, which
    carries its id *)
Theorem C03_single_reply : forall body sigs srvf srv dm e,
  results_dumpable body (sv_jsonclass srv) ->
  truthy e = true -> is_list e = false -> expects_answer e = true ->
  exists o log, marshaled_dispatch body sigs srvf srv dm (PValue e) = Ok (ROne o, log)
                /\ reply_id o = Some (usable_id e) /\ wf_obj o = true.
Proof.
  intros body sigs srvf srv dm e R Ht Hl He. rewrite marshaled_single by assumption.
  pose proof (answer_entry_none_iff body sigs srvf srv dm e) as N.
  destruct (answer_entry body sigs srvf srv dm e) as [[o|] log] eqn:E; cbn in *.
  - rewrite (answer_dumpable R E). exists o, log.
    split; [reflexivity|]. split; [eapply id_echo|eapply answer_wf]; eauto.
  - unfold expects_answer in He. now rewrite (proj1 N eq_refl) in He.
Qed.
Print Assumptions C03_single_reply.
