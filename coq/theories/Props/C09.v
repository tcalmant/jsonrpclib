(** Property C09 — the thread pool runs every accepted task at most once, reports it faithfully,
    and runs nothing after stop() has returned.

    Quantification: every pool size accepted by the constructor, every assignment of client
    programs over {start, stop, enqueue, join, join(timeout)} to any number of threads, every
    schedule (a list of (thread, fire-its-timeout?) choices; disabled choices are skipped, so
    every list is a schedule and time-outs may expire at ANY moment, a superset of "at
    quiescent moments").  Model: Model/Pool.v (line granularity, repaired code).

    The liveness half of the statement ("is executed once the pool is running") is proved in its
    safety form only (C09_never_stranded: a queued task of a running pool at rest always has a
    live worker serving the queue); that this worker is eventually scheduled and that Queue.get
    returns a queued item are fairness / the queue's contract, outside the model; it is decided
    on the implementation by the oracle over the explored schedules.  The FIFO clause for a single
    worker is C09_single_worker_fifo (max_threads = 1: the bodies begin in the order of the puts). *)
From JR Require Import PoolInvDefs PoolInvC PoolInvH PoolSafety PoolLifecycle PoolGrowth PoolFifo PoolReach.

Theorem C09_at_most_once : forall mx mn progs sched t,
  valid_cfg mx mn -> (tstarts (run sched (init mx mn progs)) t <= 1)%nat.
Proof.
  intros mx mn progs sched t Hv. pose proof (i_once _ (reachable_inv1 mx mn progs sched Hv) t). lia.
Qed.
Print Assumptions C09_at_most_once.

(** a future is done only if the body of its task began exactly once (and it is completed by the worker
    that ran that body: [tdone] is written by the WBody step alone) *)
Theorem C09_future_done_means_ran_once : forall mx mn progs sched t,
  valid_cfg mx mn ->
  tdone (run sched (init mx mn progs)) t = true -> tstarts (run sched (init mx mn progs)) t = 1%nat.
Proof.
  intros mx mn progs sched t Hv Hd.
  exact (task_ran_once _ t (v_task (Inv_reachable mx mn progs sched Hv)) Hd).
Qed.
Print Assumptions C09_future_done_means_ran_once.

(** no task body begins while stop() has returned and start() has not been called again
    (monitor [late_start]), and in such a state every worker thread has terminated *)
Theorem C09_no_run_after_stop : forall mx mn progs sched,
  valid_cfg mx mn ->
  let s := run sched (init mx mn progs) in
  late_start s = false /\ (stop_done s = true -> forall w, alive (ws s w) = false).
Proof.
  intros mx mn progs sched Hv s. pose proof (reachable_inv2 mx mn progs sched Hv : Inv2 s) as J.
  split; [apply (j_late _ J) | apply (after_stop_dead s (j_flag _ J) (j_quiet _ J))].
Qed.
Print Assumptions C09_no_run_after_stop.

(** every accepted task is in the queue, held by a worker, done, or was dropped by stop()'s clear():
    nothing is lost silently *)
Theorem C09_every_task_accounted_for : forall mx mn progs sched,
  valid_cfg mx mn ->
  let s := run sched (init mx mn progs) in
  forall t, (t < next_task s)%nat ->
  (1 <= qocc t (q s) + count (holds_any t) (ws s) (next_w s) + b2n (settled s t))%nat.
Proof. intros mx mn progs sched Hv s. exact (i_place _ (reachable_inv1 mx mn progs sched Hv)). Qed.
Print Assumptions C09_every_task_accounted_for.

(** between the return of start() and the call of stop(), with no enqueue() in flight, a non-empty
    queue always has at least one worker thread serving it (counted in nb_threads; in a running pool such a
    worker will still take an item, I_nosent): an accepted task is never left in a running pool without a worker *)
Theorem C09_never_stranded : forall mx mn progs sched,
  valid_cfg mx mn ->
  let s := run sched (init mx mn progs) in
  start_done s = true -> (forall c, ewin (cpc (cs s c)) = false) -> q s <> [] ->
  1 <= nb_threads s /\ nb_threads s = Z.of_nat (count serving (ws s) (next_w s)).
Proof.
  intros mx mn progs sched Hv s Hsd Hall Hq. pose proof (Inv_reachable mx mn progs sched Hv : Inv mx mn s) as R. split.
  - exact (proj2 (growth_at_rest s (v_inv2 R) (v_growth R) Hsd Hall) Hq).
  - exact (i_nb _ (j_inv1 _ (v_inv2 R))).
Qed.
Print Assumptions C09_never_stranded.

(** with a single worker allowed (max_threads = 1) task bodies begin in submission order: tasks are numbered
    in the order of their put, [start_log] lists the tasks whose body began, most recent first ([desc]:
    every element is greater than all that follow it), and it records every begin (second theorem) *)
Theorem C09_single_worker_fifo : forall mn progs sched,
  valid_cfg 1 mn -> desc (start_log (run sched (init 1 mn progs))).
Proof. intros mn progs sched Hv. exact (f_desc _ (v_fifo (Inv_reachable 1 mn progs sched Hv) eq_refl)). Qed.
Print Assumptions C09_single_worker_fifo.

Theorem C09_start_log_records_every_begin : forall mx mn progs sched t,
  count_occ Nat.eq_dec (start_log (run sched (init mx mn progs))) t = tstarts (run sched (init mx mn progs)) t.
Proof. intros mx mn progs sched. apply (pool_invariant I_logcount P_logcount). intros t. reflexivity. Qed.
Print Assumptions C09_start_log_records_every_begin.
