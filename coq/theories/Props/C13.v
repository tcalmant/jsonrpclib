(** Property C13 — replies depend only on the request and the server's version; serving never writes a
    configuration; Config.copy() yields an independent configuration.

    [h]: a heap holding Config objects and (by reference) their two tables; every change of a heap is a
    [do_write], [writes ws h] performs the writes [ws] in order and [h_log] records them.
    [hs]: the server — the location of its json_config, its registry, whether a notification pool is set;
    [body]/[sigs]: arbitrary registered callables; [dm]: custom dispatch function.
    [cfg_ok h c]: the Config at [c] is complete (its two tables exist) and its objects lie below the
    allocation pointer — true of every Config of a well-formed heap ([heap_wf]: C13_wf_heap_configs_ok).
    Everything below is proved about [cfg_ok]; [heap_wf] is only this source of it: that serving, copy()
    or a write keeps a heap well-formed is not proved.
    [read_form h c = Ok f]: the version stored at [c] is 1.0 ([V1]) or 2.0 ([V2]). *)
From JR Require Import DispatchProofs DispatchTheorems Config ConfigProofs.
From Coq Require Import Lia.

(** the hypothesis [cfg_ok] of the theorems below holds for every Config of a well-formed heap *)
Theorem C13_wf_heap_configs_ok : forall h c r,
  heap_wf h = true -> lookup_loc c (h_cfgs h) = Some r -> cfg_ok h c = true.
Proof.
  unfold heap_wf. intros h c r [H _]%andb_true_iff E. exact (forallb_In H (lookup_loc_In _ _ _ E)).
Qed.
Print Assumptions C13_wf_heap_configs_ok.

(** (a) history-free: the reply to [p] after any history from any heap is the reply of the pure
    dispatcher for the version (and use_jsonclass flag) stored in the server's Config *)
Theorem C13_reply_is_pure : forall body sigs h hs dm hist p f jc,
  cfg_ok h (hs_cfg hs) = true -> read_form h (hs_cfg hs) = Ok f -> read_jsonclass h (hs_cfg hs) = Ok jc ->
  reply_after body sigs h hs dm hist p
  = Ok (marshaled_dispatch body sigs f (mkSrv (hs_reg hs) (hs_pool hs) jc) dm p).
Proof.
  intros body sigs h hs dm hist p f jc Hok Hf Hj. unfold reply_after.
  assert (S : serves h hs f jc) by (repeat split; assumption).
  destruct (serve_all_spec body sigs hs dm f jc hist h S) as (h1 & -> & E1). cbn [bind fst].
  destruct (serve_spec body sigs h1 hs dm p f jc (serves_ext S E1)) as (h2 & -> & _). reflexivity.
Qed.
Print Assumptions C13_reply_is_pure.

(** … hence the same after any two histories [hist], [hist'] from any two heaps [h], [h'] in which the
    server's Config has the same version and use_jsonclass flag *)
Theorem C13_reply_function : forall body sigs h h' srv srv' reg pool dm hist hist' p f jc,
  cfg_ok h srv = true -> cfg_ok h' srv' = true ->
  read_form h srv = Ok f -> read_form h' srv' = Ok f ->
  read_jsonclass h srv = Ok jc -> read_jsonclass h' srv' = Ok jc ->
  reply_after body sigs h (mkHS srv reg pool) dm hist p
  = reply_after body sigs h' (mkHS srv' reg pool) dm hist' p.
Proof.
  intros body sigs h h' srv srv' reg pool dm hist hist' p f jc Hok Hok' Hf Hf' Hj Hj'.
  rewrite (C13_reply_is_pure body sigs h (mkHS srv reg pool) dm hist p f jc Hok Hf Hj).
  now rewrite (C13_reply_is_pure body sigs h' (mkHS srv' reg pool) dm hist' p f jc Hok' Hf' Hj').
Qed.
Print Assumptions C13_reply_function.

(** (a) form: the answer to a well-formed entry has the server's own form when the entry carries
    "jsonrpc" and 1.0 form otherwise; the answer to an invalid entry has the server's own form *)
Theorem C13_form : forall body sigs h hs dm e f jc h1 o log,
  cfg_ok h (hs_cfg hs) = true -> read_form h (hs_cfg hs) = Ok f -> read_jsonclass h (hs_cfg hs) = Ok jc ->
  answer_entry_h body sigs h hs dm e = Ok (h1, (Some o, log)) ->
  (forall m, e = VDict m -> wellformed_entry e = true ->
             reply_form o = Some (if dhas m "jsonrpc" then f else V1))
  /\ (wellformed_entry e = false -> reply_form o = Some f).
Proof.
  intros body sigs h hs dm e f jc h1 o log Hok Hf Hj H.
  destruct (answer_entry_h_spec body sigs h hs dm e f jc (conj Hok (conj Hf Hj))) as (h1' & E & _).
  rewrite E in H. inversion H as [[Hh Ha]]. split.
  - intros m -> Hw. eapply reply_form_valid; eauto.
  - intros Hw. eapply reply_form_invalid; eauto.
Qed.
Print Assumptions C13_form.

Theorem C13_form_valid : forall body sigs srvf srv dm e m o log,
  e = VDict m -> wellformed_entry e = true ->
  answer_entry body sigs srvf srv dm e = (Some o, log) ->
  reply_form o = Some (if dhas m "jsonrpc" then srvf else V1).
Proof. exact reply_form_valid. Qed.
Print Assumptions C13_form_valid.

Theorem C13_form_invalid : forall body sigs srvf srv dm e o log,
  wellformed_entry e = false ->
  answer_entry body sigs srvf srv dm e = (Some o, log) -> reply_form o = Some srvf.
Proof. exact reply_form_invalid. Qed.
Print Assumptions C13_form_invalid.

(** every object of a batch reply is the answer to one of the batch's entries (so the two theorems
    above speak about each of them) *)
Theorem C13_form_batch : forall body sigs srvf srv dm es o,
  In o (fst (batch body sigs srvf srv dm es)) ->
  exists e log, In e es /\ answer_entry body sigs srvf srv dm e = (Some o, log).
Proof.
  intros body sigs srvf srv dm es o. rewrite batch_answers. intros H. apply in_flat_map in H as (e & He & Ho).
  destruct (answer_entry body sigs srvf srv dm e) as [[o'|] l] eqn:E; cbn in Ho; [|contradiction].
  destruct Ho as [->|[]]. eauto.
Qed.
Print Assumptions C13_form_batch.

(** an unparsable body is answered in the server's own form *)
Theorem C13_form_unparsable : forall body sigs h hs dm f jc,
  cfg_ok h (hs_cfg hs) = true -> read_form h (hs_cfg hs) = Ok f -> read_jsonclass h (hs_cfg hs) = Ok jc ->
  exists h1 o, serve body sigs h hs dm PError = Ok (h1, Ok (ROne o, [])) /\ reply_form o = Some f.
Proof.
  intros body sigs h hs dm f jc Hok Hf Hj. unfold serve. cbn [loads_m]. rewrite Hf. cbn [bind].
  eexists _, _. split; [reflexivity|apply reply_form_err].
Qed.
Print Assumptions C13_form_unparsable.

(** (b) serving one body succeeds and changes the heap by a sequence of writes [ws] (which the heap's
    log records) that all go to locations allocated during this request; after EVERY prefix of these
    writes the server's Config and DEFAULT ([dflt]: any other complete Config) have the snapshot —
    six attributes, identity and contents of both tables — they had before *)
Theorem C13_config_unchanged : forall body sigs h hs dm p dflt f jc,
  cfg_ok h (hs_cfg hs) = true -> cfg_ok h dflt = true ->
  read_form h (hs_cfg hs) = Ok f -> read_jsonclass h (hs_cfg hs) = Ok jc ->
  exists h' x ws,
    serve body sigs h hs dm p = Ok (h', x)
    /\ h' = writes ws h /\ h_log h' = (rev ws ++ h_log h)%list
    /\ above (h_next h) ws
    /\ forall k, snapshot (writes (firstn k ws) h) (hs_cfg hs) = snapshot h (hs_cfg hs)
                 /\ snapshot (writes (firstn k ws) h) dflt = snapshot h dflt.
Proof.
  intros body sigs h hs dm p dflt f jc Hok Hokd Hf Hj.
  destruct (serve_spec body sigs h hs dm p f jc (conj Hok (conj Hf Hj))) as (h1 & E & Ex).
  destruct (ext_log Hok Hokd Ex) as (ws & L). eauto.
Qed.
Print Assumptions C13_config_unchanged.

(** … and the same for a whole history of bodies *)
Theorem C13_history_config_unchanged : forall body sigs h hs dm ps dflt f jc,
  cfg_ok h (hs_cfg hs) = true -> cfg_ok h dflt = true ->
  read_form h (hs_cfg hs) = Ok f -> read_jsonclass h (hs_cfg hs) = Ok jc ->
  exists h' xs ws,
    serve_all body sigs h hs dm ps = Ok (h', xs)
    /\ h' = writes ws h /\ h_log h' = (rev ws ++ h_log h)%list
    /\ above (h_next h) ws
    /\ forall k, snapshot (writes (firstn k ws) h) (hs_cfg hs) = snapshot h (hs_cfg hs)
                 /\ snapshot (writes (firstn k ws) h) dflt = snapshot h dflt.
Proof.
  intros body sigs h hs dm ps dflt f jc Hok Hokd Hf Hj.
  destruct (serve_all_spec body sigs hs dm f jc ps h (conj Hok (conj Hf Hj))) as (h1 & E & Ex).
  destruct (ext_log Hok Hokd Ex) as (ws & L). eauto.
Qed.
Print Assumptions C13_history_config_unchanged.

(** a write at or above the allocation pointer is a write neither to a complete Config nor to its tables *)
Theorem C13_writes_miss_configs : forall h c r w,
  cfg_ok h c = true -> lookup_loc c (h_cfgs h) = Some r -> (h_next h <= wloc w)%nat ->
  wloc w <> c /\ wloc w <> c_classes r /\ wloc w <> c_handlers r.
Proof.
  intros h c r w Hok E L. apply cfg_ok_iff in Hok as (r' & cl & hd & Sn & L').
  apply snapshot_iff in Sn as (E0 & _). rewrite E in E0. inversion E0; subst r'. lia.
Qed.
Print Assumptions C13_writes_miss_configs.

(** (c) Config.copy(): any sequence of operations (attribute assignments, table insertions and
    removals) applied to the copy succeeds and leaves the snapshot of the original as it was before
    copy(); applied to the original it leaves the snapshot of the copy as it was right after copy() *)
Theorem C13_copy_independent : forall h c h1 c' ops,
  cfg_ok h c = true -> config_copy h c = Ok (h1, c') ->
  (exists h2, apply_ops h1 c' ops = Ok h2 /\ snapshot h2 c = snapshot h c)
  /\ (exists h2, apply_ops h1 c ops = Ok h2 /\ snapshot h2 c' = snapshot h1 c').
Proof.
  intros h c h1 c' os Hok H. destruct (proj1 (cfg_ok_iff _ _) Hok) as (r & cl & hd & Sn & L).
  destruct (config_copy_ok h c r cl hd Sn) as (h1' & HS & Ex & Nx & Sn').
  rewrite H in HS. inversion HS; subst h1' c'. clear HS.
  destruct (ext_cfg_ok Hok Ex) as (_ & _ & Sn1). rewrite Sn in *.
  (* the objects of the original lie below the allocation pointer of [h], those of the copy at or above it *)
  split.
  - apply (ops_miss os h1 _ _ c r cl hd (snapshot_owns Sn') Sn1). cbn. lia.
  - rewrite Sn'. apply (ops_miss os h1 _ _ _ _ cl hd (snapshot_owns Sn1) Sn'). cbn. lia.
Qed.
Print Assumptions C13_copy_independent.

(** copy() of a complete Config succeeds, writes only above the allocation pointer, and yields a
    complete Config *)
Theorem C13_copy_total : forall h c, cfg_ok h c = true ->
  exists h1 c', config_copy h c = Ok (h1, c') /\ ext (h_next h) h h1 /\ (h_next h <= c')%nat
    /\ cfg_ok h1 c' = true /\ cfg_ok h1 c = true.
Proof.
  intros h c Hok. destruct (proj1 (cfg_ok_iff _ _) Hok) as (r & cl & hd & Sn & _).
  destruct (config_copy_ok h c r cl hd Sn) as (h1 & HS & Ex & Nx & Sn').
  exists h1, (S (S (h_next h))). split; [exact HS|]. split; [exact Ex|]. split; [lia|]. split.
  - apply cfg_ok_iff. eexists _, _, _. split; [exact Sn'|]. cbn. lia.
  - apply (ext_cfg_ok Hok Ex).
Qed.
Print Assumptions C13_copy_total.

(** the copy has the attributes and table contents of the original, in tables of its own *)
Theorem C13_copy_contents : forall h c h1 c' s,
  cfg_ok h c = true -> config_copy h c = Ok (h1, c') -> snapshot h c = Ok s ->
  exists s', snapshot h1 c' = Ok s'
    /\ s_classes s' = s_classes s /\ s_handlers s' = s_handlers s
    /\ c_version (s_rec s') = c_version (s_rec s) /\ c_content_type (s_rec s') = c_content_type (s_rec s)
    /\ c_use_jsonclass (s_rec s') = c_use_jsonclass (s_rec s)
    /\ c_serialize_method (s_rec s') = c_serialize_method (s_rec s)
    /\ c_ignore_attribute (s_rec s') = c_ignore_attribute (s_rec s)
    /\ c_user_agent (s_rec s') = match c_user_agent (s_rec s) with VNone => default_user_agent | u => u end
    /\ c_classes (s_rec s') <> c_classes (s_rec s) /\ c_handlers (s_rec s') <> c_handlers (s_rec s)
    /\ c_classes (s_rec s') <> c_handlers (s_rec s) /\ c_handlers (s_rec s') <> c_classes (s_rec s).
Proof.
  intros h c h1 c' s Hok H Sn. apply cfg_ok_iff in Hok as (r & cl & hd & Sn0 & L).
  destruct (config_copy_ok h c r cl hd Sn0) as (h1' & HS & _ & _ & Sn').
  rewrite H in HS. inversion HS; subst h1' c'.
  rewrite Sn0 in Sn. inversion Sn; subst s.
  eexists. split; [exact Sn'|]. cbn. repeat split; lia.
Qed.
Print Assumptions C13_copy_contents.

(** (d) concurrent serving.  k handler threads execute _marshaled_single_dispatch line by line over the
    shared heap [h0], thread i serving [nth reqs i]; [sched] — any list of thread numbers — is the
    order in which they take their steps (a choice that is not enabled is skipped, so every list is a
    schedule).  In the state reached: all writes went to locations allocated after the threads
    started (the heap's log records them), so after every prefix of them the server's Config and
    DEFAULT have their initial snapshot; no thread has failed; a thread that has finished holds the
    answer the same request gets when it is served alone on the initial heap *)
Theorem C13_concurrent_independence : forall body sigs hs h0 f jc,
  cfg_ok h0 (hs_cfg hs) = true -> read_form h0 (hs_cfg hs) = Ok f -> read_jsonclass h0 (hs_cfg hs) = Ok jc ->
  forall reqs sched dflt, cfg_ok h0 dflt = true ->
  let s := run_sched body sigs hs sched (mkCS h0 (init_threads reqs)) in
  (exists ws, cs_heap s = writes ws h0 /\ h_log (cs_heap s) = (rev ws ++ h_log h0)%list
              /\ above (h_next h0) ws
              /\ forall k, snapshot (writes (firstn k ws) h0) (hs_cfg hs) = snapshot h0 (hs_cfg hs)
                           /\ snapshot (writes (firstn k ws) h0) dflt = snapshot h0 dflt)
  /\ map t_req (cs_threads s) = reqs
  /\ forall i t, nth_error (cs_threads s) i = Some t ->
       t_pc t <> PFailed
       /\ forall out, t_pc t = PDone out ->
            out = single_dispatch body sigs f (mkSrv (hs_reg hs) (hs_pool hs) jc)
                                  (tr_dm (t_req t)) (tr_m (t_req t)) (tr_method (t_req t)) (tr_params (t_req t))
            /\ exists h1, single_dispatch_h body sigs h0 hs (tr_dm (t_req t)) (tr_m (t_req t))
                                            (tr_method (t_req t)) (tr_params (t_req t)) = Ok (h1, out).
Proof.
  intros body sigs hs h0 f jc Hok0 Hf0 Hj0 reqs sched dflt Hokd s.
  assert (S0 : serves h0 hs f jc) by (repeat split; assumption).
  destruct (run_ok body sigs hs h0 f jc S0 reqs sched) as (E & M & F). fold s in E, M, F.
  split; [exact (ext_log Hok0 Hokd E)|]. split; [exact M|].
  intros i t Nt. rewrite Forall_forall in F. pose proof (F t (nth_error_In _ _ Nt)) as T.
  unfold thread_ok in T. split; [intros Q; now rewrite Q in T|].
  intros out Q. rewrite Q in T. split; [exact T|].
  destruct (single_dispatch_h_spec body sigs h0 hs (tr_dm (t_req t)) (tr_m (t_req t)) (tr_method (t_req t))
                                    (tr_params (t_req t)) f jc S0) as (h1 & Eq & _).
  exists h1. now rewrite Eq, T.
Qed.
Print Assumptions C13_concurrent_independence.
