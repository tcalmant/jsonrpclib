(** Property C18 — custom headers compose by recency and are restored after a block.

    Vocabulary (Model/Headers.v, Proofs/HeadersProofs.v):
      [layers extra st]      the base layer (Authorization from the URL's user-info, or nothing) followed by the
                             stack [st] of pushed dictionaries in push order (constructor headers first);
      [last_defining ls n]   the most recently pushed dictionary of [ls] with a name that lower-cases to [n];
      [variants_in h n]      the values [h] gives to the case variants of [n] (several only if [h] itself holds variants);
      [emit_pure ostr extra st]  the lines emit_additional_headers puts on the connection; [emit] = the same, refusing non-ASCII names;
      [pystr ostr v]         str(v) (ints, bools, None, strings concrete; [ostr] = str() of any other object, arbitrary);
      [key_is n] / [line_is n]   lines named exactly [n] / named [n] up to letter case;
      [run ops s]            the transport stack driven by enter / leave (normal or exceptional) / request events. *)
From JR Require Import Headers HeadersProofs.

(** every defined, non-protected name is carried exactly once, with the str() of a value of the MOST RECENT
    dictionary that defines it (any letter case) — for every stack, of any depth *)
Theorem C18_recency : forall (ostr : val -> str) extra st n h,
  is_readonly n = false -> last_defining (layers extra st) n = Some h ->
  exists v, In v (variants_in h n) /\ filter (key_is n) (emit_pure ostr extra st) = [(n, pystr ostr v)].
Proof. exact recency. Qed.
Print Assumptions C18_recency.

(** nothing else is emitted: every line is lower-case, not protected, and is the most recent definition of its name
    (so a superseded value never appears) *)
Theorem C18_nothing_else : forall (ostr : val -> str) extra st k v,
  In (k, v) (emit_pure ostr extra st) ->
  is_readonly k = false /\ ascii_lower k = k /\
  exists h, last_defining (layers extra st) k = Some h /\ exists v', In v' (variants_in h k) /\ v = pystr ostr v'.
Proof. exact nothing_else. Qed.
Print Assumptions C18_nothing_else.

Theorem C18_no_duplicate_names : forall (ostr : val -> str) extra st, NoDup (map fst (emit_pure ostr extra st)).
Proof. exact emit_NoDup. Qed.
Print Assumptions C18_no_duplicate_names.

Theorem C18_undefined_not_emitted : forall (ostr : val -> str) extra st n,
  last_defining (layers extra st) n = None -> filter (key_is n) (emit_pure ostr extra st) = [].
Proof.
  intros ostr extra st n Hl. pose proof (slookup_layers ostr n (layers extra st)) as M. rewrite Hl in M.
  rewrite emitted_at, slookup_emit, M. now destruct (is_readonly n).
Qed.
Print Assumptions C18_undefined_not_emitted.

(** exactly one Content-Type (the configured one) and one Content-Length (the byte length of the body) whatever the
    stack contains; User-Agent is the configured one unless some case variant is pushed, then the most recent one *)
Theorem C18_fixed_headers : forall (ostr : val -> str) ct ua body extra st l,
  send_content_headers ostr ct ua body extra st = Ok l ->
  filter (line_is "content-type") l = [("Content-Type", ct)] /\
  filter (line_is "content-length") l = [("Content-Length", content_length body)] /\
  (last_defining (layers extra st) "user-agent" = None -> filter (line_is "user-agent") l = [("User-Agent", ua)]) /\
  (forall h, last_defining (layers extra st) "user-agent" = Some h ->
     exists v, In v (variants_in h "user-agent") /\ filter (line_is "user-agent") l = [("user-agent", pystr ostr v)]).
Proof. exact fixed_headers. Qed.
Print Assumptions C18_fixed_headers.

(** the complete list of header lines of a request (ASCII names) *)
Theorem C18_request_lines : forall (ostr : val -> str) ct ua body extra st,
  names_ascii (layers extra st) = true ->
  request_headers ostr ct ua body extra st =
  Ok ([("Accept-Encoding", "gzip"); ("Content-Type", ct); ("Content-Length", content_length body)]
      ++ emit_pure ostr extra st
      ++ (if has_key (emit_pure ostr extra st) "user-agent" then [] else [("User-Agent", ua)]))%list.
Proof.
  intros ostr ct ua body extra st H. unfold request_headers, send_content_headers, emit. now rewrite H.
Qed.
Print Assumptions C18_request_lines.

(** leaving a block, normally or through an exception, restores the stack; the body may be any balanced sequence
    of nested blocks and requests *)
Theorem C18_block_restores : forall st h body o,
  open_after body [] = [] ->
  run (OEnter h :: body ++ [OLeave o]) (mkH st []) = Ok (mkH st []).
Proof.
  intros st h body o Hb. apply balanced_restores. simpl. rewrite open_after_app.
  destruct (open_after_enclosed body [] h Hb) as [E|E]; simpl in E; now rewrite E.
Qed.
Print Assumptions C18_block_restores.

(** after ANY sequence of enter / leave / request events the stack is the initial one followed by the dictionaries
    of the blocks still open, outermost first; pop's assertion never fails *)
Theorem C18_nested_blocks : forall ops st0,
  run ops (mkH st0 []) = Ok (mkH (st0 ++ rev (open_after ops [])) (open_after ops [])).
Proof. exact nested_blocks. Qed.
Print Assumptions C18_nested_blocks.

Theorem C18_balanced_restores : forall ops st0,
  open_after ops [] = [] -> run ops (mkH st0 []) = Ok (mkH st0 []).
Proof. exact balanced_restores. Qed.
Print Assumptions C18_balanced_restores.

(** push then pop of the same dictionary is the identity *)
Theorem C18_pop_push : forall st h, pop_headers (push_headers st h) h = Ok st.
Proof. exact pop_push. Qed.
Print Assumptions C18_pop_push.
