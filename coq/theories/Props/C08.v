(** Property C08 — class translation is inert when disabled and validates names before importing.
    The event log of [jc_load_m] records every call of __import__ ([EvImport]) and every call of a
    resolved class ([EvConstruct]); [dec] is the JSON backend, [dispatch] the rest of the dispatcher
    (arbitrary). *)
From JR Require Import JsonClass JsonClassC08Proofs.

(** use_jsonclass off: jsonrpc.load returns its argument, writes nothing, imports and constructs nothing *)
Theorem C08_inert_load : forall V E cfg v,
  cf_use cfg = false -> rpc_load V E cfg v = (Ok v, v, []).
Proof. intros * H. unfold rpc_load. rewrite H. destruct v; reflexivity. Qed.
Print Assumptions C08_inert_load.

(** ... so jsonrpc.loads is plain JSON decoding ("__jsonclass__" members pass through verbatim) *)
Theorem C08_inert_loads : forall (dec : str -> res val) V E cfg data,
  cf_use cfg = false ->
  rpc_loads dec V E cfg data = (if String.eqb data "" then Ok VNone else dec data, []).
Proof.
  intros * H. unfold rpc_loads. destruct (String.eqb data ""); [reflexivity|].
  destruct (dec data) as [v|e]; [|reflexivity]. rewrite (C08_inert_load V E cfg v H). reflexivity.
Qed.
Print Assumptions C08_inert_loads.

(** dump side: parameters / results are passed through unchanged *)
Theorem C08_inert_dump : forall hfun V E cfg params,
  cf_use cfg = false -> rpc_dump_params hfun V E cfg params = Ok params.
Proof. intros * H. unfold rpc_dump_params. now rewrite H. Qed.
Print Assumptions C08_inert_dump.

(** an otherwise well-formed descriptor whose class name is empty (or any other falsy value) or a
    string with a character outside [a-zA-Z0-9_.]: TranslationError, the dict untouched, no event *)
Theorem C08_invalid_name_rejected : forall V E cl m jc name params,
  dget m "__jsonclass__" = Some jc -> descriptor_shape jc = Some (name, params) ->
  name_ok name = false -> (is_string name = true \/ truthy name = false) ->
  jc_load_m V E cl (VDict m) = (Raise ETranslation, VDict m, []).
Proof.
  intros * Hjc Hshape Hname Hstr. apply (load_descriptor_head_raise V E cl m jc); [exact Hjc|].
  exact (head_rejects_translation E cl m jc name params Hjc Hshape Hname Hstr).
Qed.
Print Assumptions C08_invalid_name_rejected.

(** descriptors of any type and length: unless element 0 exists and is an acceptable name, load
    raises with the dict untouched and no event *)
Theorem C08_malformed_rejected : forall V E cl m jc,
  dget m "__jsonclass__" = Some jc ->
  (forall name, py_getitem jc (VInt 0) = Ok name -> name_ok name = false) ->
  exists e, jc_load_m V E cl (VDict m) = (Raise e, VDict m, []).
Proof.
  intros * Hjc Hname. destruct (head_rejects_bad_name E cl m jc Hjc Hname) as [e He].
  exists e. exact (load_descriptor_head_raise V E cl m jc e [] Hjc He).
Qed.
Print Assumptions C08_malformed_rejected.

(** conversely: an import or a construction for a descriptor happens only after its name was accepted *)
Theorem C08_events_need_valid_name : forall E cl m jc name r ev,
  dget m "__jsonclass__" = Some jc -> py_getitem jc (VInt 0) = Ok name ->
  descriptor_head E cl m = (r, ev) -> ev <> [] -> name_ok name = true.
Proof.
  intros * Hjc Hn Hh Hev. destruct (name_ok name) eqn:Hok; [reflexivity|].
  destruct (head_rejects_bad_name E cl m jc Hjc) as [e He].
  - intros name' Hn'. rewrite Hn in Hn'. now injection Hn' as <-.
  - rewrite He in Hh. injection Hh as _ <-. now contradiction Hev.
Qed.
Print Assumptions C08_events_need_valid_name.

(** at any depth of lists / tuples / sets / dicts: when the members visited before it load, the
    rejection is the outcome of the whole load and the only events are those of the earlier members *)
Theorem C08_reject_at_depth : forall E cl fs x e,
  forallb (frame_ok fixed E cl) fs = true -> lres_val (jc_load_m fixed E cl x) = Raise e ->
  lres_val (jc_load_m fixed E cl (plugs fs x)) = Raise e /\
  lres_events (jc_load_m fixed E cl (plugs fs x)) =
    (flat_map (frame_events fixed E cl) fs ++ lres_events (jc_load_m fixed E cl x))%list.
Proof.
  intros * Hok Hx. induction fs as [|f fs IH]; cbn [plugs fold_right flat_map]; [auto|].
  cbn [forallb] in Hok. apply andb_true_iff in Hok as [Hf Hfs]. destruct (IH Hfs) as [IH1 IH2].
  fold (plugs fs x). destruct (reject_in_frame E cl f (plugs fs x) e Hf IH1) as [H1 H2].
  split; [exact H1|]. rewrite H2, IH2. now rewrite app_assoc.
Qed.
Print Assumptions C08_reject_at_depth.

(** any payload the translator (or the parser) rejects: the reply is the -32700 object, nothing is dispatched *)
Theorem C08_server_32700 : forall (dec : str -> res val) (call : Type) (dispatch : val -> val * list call)
                                  V E cfg v2 data e ev,
  rpc_loads dec V E cfg data = (Raise e, ev) ->
  marshaled_dispatch dec call dispatch V E cfg v2 data = (parse_error_reply v2, [], ev).
Proof. intros * H. unfold marshaled_dispatch. now rewrite H. Qed.
Print Assumptions C08_server_32700.

Theorem C08_server_reply_shape : forall v2,
  exists m em, parse_error_reply v2 = VDict m /\ dget m "error" = Some (VDict em) /\
               dget em "code" = Some (VInt (-32700)) /\ dget m "id" = Some VNone.
Proof. intros v2. destruct v2; cbn [parse_error_reply]; eexists; eexists; repeat split; reflexivity. Qed.
Print Assumptions C08_server_reply_shape.

Theorem C08_translator_rejection_reaches_server : forall (dec : str -> res val) V E cfg data v e,
  String.eqb data "" = false -> dec data = Ok v -> cf_use cfg = true -> v <> VNone ->
  lres_val (jc_load_m V E (cf_classes cfg) v) = Raise e ->
  rpc_loads dec V E cfg data = (Raise e, lres_events (jc_load_m V E (cf_classes cfg) v)).
Proof.
  intros * Hd Hdec Hu Hv Hl. unfold rpc_loads. rewrite Hd, Hdec. unfold rpc_load. rewrite Hu.
  destruct v; try (now rewrite Hl); now contradiction Hv.
Qed.
Print Assumptions C08_translator_rejection_reaches_server.
