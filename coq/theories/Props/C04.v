(** Property C04 — notifications are executed exactly once and never answered (dispatcher side).
    A notification = a well-formed request whose id is absent, null or ""
    ([is_notification_entry]); "executed once" = the log of the entry is the log of ONE
    execution of the dispatch target ([run_target]); the theorems below say what that log is. *)
From JR Require Import Client Payload PayloadProofs Dispatch DispatchProofs DispatchTheorems DispatchBridge.

(** inline: no response object — whether the target returns, returns a Fault or raises — and the
    entry's invocation log is exactly one execution of the target *)
Theorem C04_inline : forall body sigs srvf srv dm e m s,
  e = VDict m -> is_notification_entry e = true -> method_of e = Some s -> sv_pool srv = false ->
  answer_entry body sigs srvf srv dm e
  = (None, snd (run_target body sigs (sv_reg srv) dm s (params_of e))).
Proof. intros body sigs srvf srv dm e m s -> Hn Hm Hp. now rewrite (answer_notification _ _ _ _ _ _ s), Hp. Qed.
Print Assumptions C04_inline.

(** pooled: no response object, nothing runs on the request thread, exactly one task is enqueued *)
Theorem C04_pooled_enqueued_once : forall body sigs srvf srv dm e m s,
  e = VDict m -> is_notification_entry e = true -> method_of e = Some s -> sv_pool srv = true ->
  answer_entry body sigs srvf srv dm e
  = (None, [EvEnqueue dm s (params_of e)
                      (match dm with Some _ => None | None => Some (request_form srvf m) end)]).
Proof. intros body sigs srvf srv dm e m s -> Hn Hm Hp. now rewrite (answer_notification _ _ _ _ _ _ s), Hp. Qed.
Print Assumptions C04_pooled_enqueued_once.

(** executing that task once is one execution of the dispatch target (that the pool executes every
    accepted task exactly once, under every schedule, is property C09) *)
Theorem C04_pooled_executed_once_partial : forall body sigs reg dm s p cfg,
  drain body sigs reg [EvEnqueue dm s p cfg] = snd (run_target body sigs reg dm s p).
Proof. intros. unfold drain. cbn. apply app_nil_r. Qed.
Print Assumptions C04_pooled_executed_once_partial.

(** one execution of the target: a custom dispatch function is entered exactly once … *)
Theorem C04_custom_once : forall body sigs reg d s p,
  snd (run_target body sigs reg (Some d) s p) = [EvCall d (dispatch_args s p)].
Proof. intros. apply call_dispatcher_log. Qed.
Print Assumptions C04_custom_once.

(** … a registered function exactly once when the arguments bind, not at all otherwise … *)
Theorem C04_function_once : forall body sigs reg s p c,
  lookup s (r_funcs reg) = Some c ->
  snd (run_target body sigs reg None s p) = if call_binds (sigs c) p then [EvCall c p] else [].
Proof. intros body sigs reg s p c H. cbn. rewrite (dispatch_func _ _ _ H). apply call_func_log. Qed.
Print Assumptions C04_function_once.

(** … and an unknown method runs nothing *)
Theorem C04_unknown_runs_nothing : forall body sigs reg s p,
  lookup s (r_funcs reg) = None -> r_instance reg = None ->
  run_target body sigs reg None s p = unknown_method s.
Proof. intros. now apply dispatch_no_instance. Qed.
Print Assumptions C04_unknown_runs_nothing.

(** at every batch position: the log of a batch is the concatenation of its entries' logs,
    and notifications contribute no response (C03_batch_one_to_one) *)
Theorem C04_batch_log : forall body sigs srvf srv dm entries,
  snd (batch body sigs srvf srv dm entries)
  = flat_map (fun e => snd (answer_entry body sigs srvf srv dm e)) entries.
Proof.
  intros body sigs srvf srv dm es. induction es as [|e r IH]; [reflexivity|].
  rewrite batch_cons. cbn [snd flat_map]. now rewrite IH.
Qed.
Print Assumptions C04_batch_log.

(** whatever the registry and the dispatch function: one execution of the target enters nothing,
    one callable once, or a declining instance-level _dispatch once followed by the resolved
    function once — never a callable twice *)
Theorem C04_target_log_shape : forall body sigs reg dm s p,
  let log := snd (run_target body sigs reg dm s p) in
  log = [] \/ (exists c a, log = [EvCall c a])
  \/ (exists d c, log = [EvCall d (dispatch_args s p); EvCall c p]).
Proof. exact target_log_shape. Qed.
Print Assumptions C04_target_log_shape.

(** a notification arriving alone is answered by the empty body … *)
Theorem C04_alone_empty_body : forall body sigs srvf srv dm e,
  is_notification_entry e = true ->
  exists log, marshaled_dispatch body sigs srvf srv dm (PValue e) = Ok (REmpty, log).
Proof.
  intros body sigs srvf srv dm e Hn.
  pose proof Hn as Hw. apply andb_true_iff in Hw as [Hw _].
  destruct (wellformed_inv _ Hw) as (m & s & -> & Hm & _).
  rewrite marshaled_single; [|destruct m; [discriminate Hm|]|]; try reflexivity.
  rewrite (answer_notification _ _ _ _ _ _ s) by assumption. cbn. eauto.
Qed.
Print Assumptions C04_alone_empty_body.

(** … which the client turns into None: _run_request returns None for an empty reply and
    check_for_errors(None) passes (C06 client model); _request_notify returns nothing *)
Theorem C04_client_notify_none : check_for_errors VNone = Ok VNone.
Proof. reflexivity. Qed.
Print Assumptions C04_client_notify_none.

(** what the client's Payload.notify builds (C14 message-construction model, versions 1.0 and
    2.0, any id the caller passed) IS a notification for the dispatcher, with the same method
    and parameters *)
Theorem C04_client_notify_is_notification : forall fresh f i method params n req p' n',
  String.eqb method "" = false -> is_param_container params = true ->
  payload_notify fresh (mkPayload i (rat_ver f)) (VStr method) params n = Ok (req, p', n') ->
  is_notification_entry req = true /\ method_of req = Some method
  /\ (truthy params = true -> params_of req = params).
Proof.
  intros fresh f i method params n req p' n' Hm Hp H. unfold is_param_container in Hp.
  rewrite notify_eq in H. cbn [is_string] in H. destruct (version_str (rat_ver f)) as [s|e]; [|discriminate H].
  injection H as <- _ _.
  unfold notify_members, params_member, jsonrpc_member, params_or_empty, is_notification_entry.
  destruct f, (truthy params); cbn; rewrite ?Hm, ?Hp; repeat split; auto; discriminate.
Qed.
Print Assumptions C04_client_notify_is_notification.
