(** Property C05 — failures get the standard error codes and rejected requests run nothing.
    "Nothing ran" = the invocation log of the model's result is []. *)
From JR Require Import Client Dispatch DispatchProofs DispatchTheorems.
From Coq Require Import Lia.

(** malformed JSON, or a payload the class translator rejects: a single -32700 error, log [] *)
Theorem C05_parse_error : forall body sigs srvf srv dm,
  exists o, marshaled_dispatch body sigs srvf srv dm PError = Ok (ROne o, [])
            /\ reply_code o = Some (VInt (-32700)) /\ reply_id o = Some VNone.
Proof. intros. eexists. split; [reflexivity|]. split; [apply reply_code_err|apply reply_id_err]. Qed.
Print Assumptions C05_parse_error.

(** a structurally invalid entry (alone or in a batch): -32600, log [] *)
Theorem C05_invalid_request : forall body sigs srvf srv dm e,
  wellformed_entry e = false ->
  exists o, answer_entry body sigs srvf srv dm e = (Some o, [])
            /\ reply_code o = Some (VInt (-32600)) /\ reply_id o = Some (usable_id e).
Proof.
  intros body sigs srvf srv dm e Hw. destruct (answer_invalid body sigs srvf srv dm e Hw) as (msg & ->).
  eexists. split; [reflexivity|]. split; [apply reply_code_err|apply reply_id_err].
Qed.
Print Assumptions C05_invalid_request.

Theorem C05_falsy_request : forall body sigs srvf srv dm v,
  truthy v = false ->
  exists o, marshaled_dispatch body sigs srvf srv dm (PValue v) = Ok (ROne o, [])
            /\ reply_code o = Some (VInt (-32600)).
Proof.
  intros body sigs srvf srv dm v H. rewrite marshaled_falsy by assumption.
  eexists. split; [reflexivity|apply reply_code_err].
Qed.
Print Assumptions C05_falsy_request.

Theorem C05_empty_body : forall body sigs srvf srv dm,
  exists o, marshaled_dispatch body sigs srvf srv dm PEmpty = Ok (ROne o, [])
            /\ reply_code o = Some (VInt (-32600)).
Proof. intros. rewrite marshaled_empty. eexists. split; [reflexivity|apply reply_code_err]. Qed.
Print Assumptions C05_empty_body.

(** the answer to a well-formed call is what the default dispatch yields: a Fault's code is the
    reply's code, with the log of the dispatch *)
Theorem C05_call_answer : forall body sigs srvf srv e m s,
  e = VDict m -> wellformed_entry e = true -> no_id e = false -> method_of e = Some s ->
  forall r log, run_target body sigs (sv_reg srv) None s (params_of e) = (r, log) ->
  match r with
  | DFault c msg =>
      answer_entry body sigs srvf srv None e = (Some (err_obj (request_form srvf m) (usable_id e) c msg), log)
  | DExn cls msg =>
      answer_entry body sigs srvf srv None e
      = (Some (err_obj (request_form srvf m) (usable_id e) (-32603) (cls ++ ":" ++ msg)), log)
  | DVal v =>
      exists o, answer_entry body sigs srvf srv None e = (Some o, log)
                /\ (reply_code o = None \/ reply_code o = Some (VInt (-32603)))
  end.
Proof.
  intros body sigs srvf srv e m s -> Hw Hno Hm r log Hr. rewrite (answer_call _ _ _ _ _ _ s), Hr by assumption.
  destruct r; try reflexivity. eexists. split; [reflexivity|]. cbn [fst reply_of].
  destruct (conv (sv_jsonclass srv) v); [left; apply reply_code_resp|right; apply reply_code_err].
Qed.
Print Assumptions C05_call_answer.

(** unknown method: -32601, log [] *)
Theorem C05_unknown_method : forall body sigs reg s p,
  lookup s (r_funcs reg) = None -> r_instance reg = None ->
  exists msg, dispatch body sigs reg s p = (DFault (-32601) msg, []).
Proof. intros body sigs reg s p H1 H2. rewrite dispatch_no_instance by assumption. unfold unknown_method. eauto. Qed.
Print Assumptions C05_unknown_method.

Theorem C05_unknown_method_instance : forall body sigs reg inst s p,
  lookup s (r_funcs reg) = None -> r_instance reg = Some inst -> i_dispatch inst = None ->
  resolve_segs (AObj (i_attrs inst)) (split_dot s) = None ->
  exists msg, dispatch body sigs reg s p = (DFault (-32601) msg, []).
Proof.
  intros body sigs reg inst s p H1 H2 H3 H4. rewrite (dispatch_instance _ _ _ H1 H2 H3).
  unfold dispatch_resolved, unknown_method. rewrite H4. eauto.
Qed.
Print Assumptions C05_unknown_method_instance.

(** on a registered instance, any dotted name with a segment starting with an underscore:
    -32601, log [] — whatever the instance's attribute tree holds *)
Theorem C05_private_segment : forall body sigs reg inst s p,
  has_underscore_segment s = true ->
  lookup s (r_funcs reg) = None -> r_instance reg = Some inst -> i_dispatch inst = None ->
  exists msg, dispatch body sigs reg s p = (DFault (-32601) msg, []).
Proof.
  intros body sigs reg inst s p Hu H1 H2 H3. eapply C05_unknown_method_instance; eauto. now apply resolve_private.
Qed.
Print Assumptions C05_private_segment.

Theorem C05_private_segment_declined : forall body sigs reg inst d s p m,
  has_underscore_segment s = true ->
  lookup s (r_funcs reg) = None -> r_instance reg = Some inst -> i_dispatch inst = Some d ->
  body d (dispatch_args s p) = RaiseExn "AttributeError" m ->
  exists msg, dispatch body sigs reg s p = (DFault (-32601) msg, [EvCall d (dispatch_args s p)]).
Proof.
  intros body sigs reg inst d s p m Hu H1 H2 H3 Hb. rewrite (dispatch_custom _ _ _ H1 H2 H3), Hb.
  cbn [declines]. rewrite String.eqb_refl. unfold dispatch_resolved. rewrite (resolve_private _ _ Hu).
  unfold unknown_method. cbn [fst snd]. eauto.
Qed.
Print Assumptions C05_private_segment_declined.

Theorem C05_resolution_rejects_private : forall segs a,
  existsb starts_with_underscore segs = true -> resolve_segs a segs = None.
Proof. exact resolve_private. Qed.
Print Assumptions C05_resolution_rejects_private.

(** argument mismatch: -32602 and the callable's body is not entered *)
Theorem C05_bad_arity : forall body sigs reg s p c,
  lookup s (r_funcs reg) = Some c -> call_binds (sigs c) p = false ->
  exists msg, dispatch body sigs reg s p = (DFault (-32602) msg, []).
Proof. intros body sigs reg s p c H1 H2. rewrite (dispatch_func _ _ _ H1), call_func_eq, H2. eauto. Qed.
Print Assumptions C05_bad_arity.

Theorem C05_bad_arity_resolved : forall body sigs reg inst s p c,
  lookup s (r_funcs reg) = None -> r_instance reg = Some inst -> i_dispatch inst = None ->
  resolve_segs (AObj (i_attrs inst)) (split_dot s) = Some (ACallable c) ->
  call_binds (sigs c) p = false ->
  exists msg, dispatch body sigs reg s p = (DFault (-32602) msg, []).
Proof.
  intros body sigs reg inst s p c H1 H2 H3 H4 H5. rewrite (dispatch_instance _ _ _ H1 H2 H3).
  unfold dispatch_resolved. rewrite H4, call_func_eq, H5. eauto.
Qed.
Print Assumptions C05_bad_arity_resolved.

(** any other exception raised by the method: -32603, the message names type and text,
    the method ran once *)
Theorem C05_method_exception : forall body sigs reg s p c cls t,
  lookup s (r_funcs reg) = Some c -> call_binds (sigs c) p = true ->
  body c p = RaiseExn cls t -> cls <> "TypeError" ->
  exists msg, dispatch body sigs reg s p = (DFault (-32603) msg, [EvCall c p])
              /\ substrb cls msg = true /\ substrb t msg = true.
Proof. intros body sigs reg s p c cls t H1. rewrite (dispatch_func _ _ _ H1). apply call_func_raises. Qed.
Print Assumptions C05_method_exception.

Theorem C05_method_exception_resolved : forall body sigs reg inst s p c cls t,
  lookup s (r_funcs reg) = None -> r_instance reg = Some inst -> i_dispatch inst = None ->
  resolve_segs (AObj (i_attrs inst)) (split_dot s) = Some (ACallable c) ->
  call_binds (sigs c) p = true -> body c p = RaiseExn cls t -> cls <> "TypeError" ->
  exists msg, dispatch body sigs reg s p = (DFault (-32603) msg, [EvCall c p])
              /\ substrb cls msg = true /\ substrb t msg = true.
Proof.
  intros body sigs reg inst s p c cls t H1 H2 H3 H4. rewrite (dispatch_instance _ _ _ H1 H2 H3).
  unfold dispatch_resolved. rewrite H4. apply call_func_raises.
Qed.
Print Assumptions C05_method_exception_resolved.

Theorem C05_custom_dispatch_exception : forall body sigs srvf srv d e m s cls t,
  e = VDict m -> wellformed_entry e = true -> no_id e = false -> method_of e = Some s ->
  body d (dispatch_args s (params_of e)) = RaiseExn cls t ->
  exists msg, answer_entry body sigs srvf srv (Some d) e
              = (Some (err_obj (request_form srvf m) (usable_id e) (-32603) msg),
                 [EvCall d (dispatch_args s (params_of e))])
              /\ substrb cls msg = true /\ substrb t msg = true.
Proof.
  intros body sigs srvf srv d e m s cls t -> Hw Hno Hm Hb. rewrite (answer_call _ _ _ _ _ _ s) by assumption.
  cbn [run_target]. unfold call_dispatcher. rewrite Hb.
  eexists. split; [reflexivity|]. apply (raise_msg_mentions "" cls ":" t).
Qed.
Print Assumptions C05_custom_dispatch_exception.

(** known finding F13, stated as the code behaves: a TypeError raised inside the method's own
    body is reported as -32602 although the method ran (the property wants -32603) *)
Theorem C05_known_F13_type_error_in_body : forall body sigs reg s p c t,
  lookup s (r_funcs reg) = Some c -> call_binds (sigs c) p = true ->
  body c p = RaiseTypeErrorInBody t ->
  exists msg, dispatch body sigs reg s p = (DFault (-32602) msg, [EvCall c p]).
Proof.
  intros body sigs reg s p c t H1 H2 H3. rewrite (dispatch_func _ _ _ H1), call_func_eq, H2, H3. eauto.
Qed.
Print Assumptions C05_known_F13_type_error_in_body.

(** the client surfaces each standard code as ProtocolError((code, message)) (composition with C06) *)
Theorem C05_client_surfaces : forall f i c msg,
  In c [-32700; -32600; -32601; -32602; -32603] ->
  check_for_errors (err_obj f i c msg) = Raise (EProtocol (VTuple [VInt c; VStr msg])).
Proof. intros f i c msg H. apply check_err_obj. cbn in H. lia. Qed.
Print Assumptions C05_client_surfaces.

(** end to end: the code (and message) of the Fault the default dispatch returns is the code of the
    reply to the request, which carries the request's id; the reply's log is the dispatch's log —
    combine with C05_unknown_method / C05_private_segment / C05_bad_arity / C05_method_exception *)
Theorem C05_fault_code_surfaces : forall body sigs srvf srv e m s c msg log,
  e = VDict m -> wellformed_entry e = true -> no_id e = false -> method_of e = Some s ->
  dispatch body sigs (sv_reg srv) s (params_of e) = (DFault c msg, log) ->
  exists o, answer_entry body sigs srvf srv None e = (Some o, log)
            /\ reply_code o = Some (VInt c) /\ reply_message o = Some (VStr msg)
            /\ reply_id o = Some (usable_id e).
Proof.
  intros body sigs srvf srv e m s c msg log -> Hw Hno Hm Hd. rewrite (answer_call _ _ _ _ _ _ s) by assumption.
  cbn [run_target]. rewrite Hd. eexists. split; [reflexivity|].
  split; [apply reply_code_err|split; [apply reply_message_err|apply reply_id_err]].
Qed.
Print Assumptions C05_fault_code_surfaces.
