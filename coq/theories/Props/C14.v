(** Property C14 — the message construction API emits exactly the members each version requires.

    Vocabulary (Model/Payload.v, Proofs/PayloadProofs.v):
      [dump jc fresh dv cfg params method rpcid version is_response is_notify n] = Ok (message, n') | Raise e
         jc = jsonclass.dump, fresh = the id supply (k-th uuid), dv = DEFAULT.version, n / n' = ids generated before / after;
      [listed_version v]: v is None, 1.0, 2.0, "1.0" or "2.0";  [listed_config_version]: 1.0 or 2.0;
      [version_number cfg v]: 1 or 2, from the spelling or (for None) from the configuration;
      [default_params]: params None becomes [] for non-responses;  [translated jc cfg p]: p, through jsonclass.dump when enabled;
      [id_used fresh i n] = (i, n) unless i is a falsy non-number, then (fresh n, n+1). *)
From JR Require Import Payload PayloadProofs.

(** the closed forms for EVERY usable version value r (the five spellings below are instances):
    params iff non-empty or r < 1.1; jsonrpc = str(r) iff r >= 2 *)
Theorem C14_request_any_version : forall (fresh : nat -> str) (jc : val -> res val) dv cfg pv m rpcid version resp notify n r s p',
  is_string m = true -> truthy resp = false -> truthy notify = false ->
  valid_params false (PVal (default_params resp pv)) = true ->
  resolved_version dv cfg version = Ok r -> (ge2 r = true -> float_str r = Ok s) ->
  translated jc cfg (default_params resp pv) = Ok p' ->
  dump jc fresh dv cfg (PVal pv) m rpcid version resp notify n =
  Ok (VDict ([(VStr "id", fst (id_used fresh rpcid n)); (VStr "method", m)]
             ++ (if truthy p' || lt11 r then [(VStr "params", if truthy p' then p' else VList [])] else [])
             ++ (if ge2 r then [(VStr "jsonrpc", VStr s)] else []))%list, snd (id_used fresh rpcid n)).
Proof.
  intros fresh jc dv cfg pv m rpcid version resp notify n r s p' Hm Hr Hno Hva Hver Hs Ht.
  rewrite (dump_pval_spec fresh jc dv cfg pv m rpcid version resp notify n r s p') by (auto using valid_request).
  unfold message. now rewrite Hr, Hno.
Qed.
Print Assumptions C14_request_any_version.

Theorem C14_notification_any_version : forall (fresh : nat -> str) (jc : val -> res val) dv cfg pv m rpcid version resp notify n r s p',
  is_string m = true -> truthy resp = false -> truthy notify = true ->
  valid_params false (PVal (default_params resp pv)) = true ->
  resolved_version dv cfg version = Ok r -> (ge2 r = true -> float_str r = Ok s) ->
  translated jc cfg (default_params resp pv) = Ok p' ->
  dump jc fresh dv cfg (PVal pv) m rpcid version resp notify n =
  Ok (VDict (notify_members r s m p'), snd (id_used fresh rpcid n)).
Proof.
  intros fresh jc dv cfg pv m rpcid version resp notify n r s p' Hm Hr Hno Hva Hver Hs Ht.
  rewrite (dump_pval_spec fresh jc dv cfg pv m rpcid version resp notify n r s p') by (auto using valid_request).
  unfold message. now rewrite Hr, Hno.
Qed.
Print Assumptions C14_notification_any_version.

(** a 2.0 request: "id", "method", "params" only when non-empty, "jsonrpc":"2.0" — and nothing else *)
Theorem C14_request_v2 : forall (fresh : nat -> str) (jc : val -> res val) dv cfg version,
  listed_version version = true -> listed_config_version (pc_version cfg) = true ->
  forall pv m rpcid resp notify n p',
  version_number cfg version = 2 ->
  is_string m = true -> truthy resp = false -> truthy notify = false ->
  valid_params false (PVal (default_params resp pv)) = true ->
  translated jc cfg (default_params resp pv) = Ok p' ->
  dump jc fresh dv cfg (PVal pv) m rpcid version resp notify n =
  Ok (VDict ([(VStr "id", fst (id_used fresh rpcid n)); (VStr "method", m)]
             ++ (if truthy p' then [(VStr "params", p')] else [])
             ++ [(VStr "jsonrpc", VStr "2.0")])%list, snd (id_used fresh rpcid n)).
Proof.
  intros fresh jc dv cfg version Hv Hc pv m rpcid resp notify n p' Hn Hm Hr Hno Hva Ht.
  destruct (listed_versions_resolve dv cfg version Hv Hc) as (r & Hres & G & L & Htx).
  rewrite (C14_request_any_version fresh jc dv cfg pv m rpcid version resp notify n r "2.0" p') by assumption.
  rewrite G, L, Hn, orb_false_r. now destruct (truthy p').
Qed.
Print Assumptions C14_request_v2.

(** a 1.0 request: always "params" (an empty list when empty), no "jsonrpc" *)
Theorem C14_request_v1 : forall (fresh : nat -> str) (jc : val -> res val) dv cfg version,
  listed_version version = true -> listed_config_version (pc_version cfg) = true ->
  forall pv m rpcid resp notify n p',
  version_number cfg version = 1 ->
  is_string m = true -> truthy resp = false -> truthy notify = false ->
  valid_params false (PVal (default_params resp pv)) = true ->
  translated jc cfg (default_params resp pv) = Ok p' ->
  dump jc fresh dv cfg (PVal pv) m rpcid version resp notify n =
  Ok (VDict [(VStr "id", fst (id_used fresh rpcid n)); (VStr "method", m);
             (VStr "params", if truthy p' then p' else VList [])], snd (id_used fresh rpcid n)).
Proof.
  intros fresh jc dv cfg version Hv Hc pv m rpcid resp notify n p' Hn Hm Hr Hno Hva Ht.
  destruct (listed_versions_resolve dv cfg version Hv Hc) as (r & Hres & G & L & Htx).
  rewrite (C14_request_any_version fresh jc dv cfg pv m rpcid version resp notify n r "2.0" p') by assumption.
  now rewrite G, L, Hn, orb_true_r.
Qed.
Print Assumptions C14_request_v1.

(** a 2.0 notification has no "id" *)
Theorem C14_notification_v2 : forall (fresh : nat -> str) (jc : val -> res val) dv cfg version,
  listed_version version = true -> listed_config_version (pc_version cfg) = true ->
  forall pv m rpcid resp notify n p',
  version_number cfg version = 2 ->
  is_string m = true -> truthy resp = false -> truthy notify = true ->
  valid_params false (PVal (default_params resp pv)) = true ->
  translated jc cfg (default_params resp pv) = Ok p' ->
  dump jc fresh dv cfg (PVal pv) m rpcid version resp notify n =
  Ok (VDict ([(VStr "method", m)] ++ (if truthy p' then [(VStr "params", p')] else [])
             ++ [(VStr "jsonrpc", VStr "2.0")])%list, snd (id_used fresh rpcid n))
  /\ dget ([(VStr "method", m)] ++ (if truthy p' then [(VStr "params", p')] else [])
           ++ [(VStr "jsonrpc", VStr "2.0")])%list "id" = None.
Proof.
  intros fresh jc dv cfg version Hv Hc pv m rpcid resp notify n p' Hn Hm Hr Hno Hva Ht.
  destruct (listed_versions_resolve dv cfg version Hv Hc) as (r & Hres & G & L & Htx).
  rewrite (C14_notification_any_version fresh jc dv cfg pv m rpcid version resp notify n r "2.0" p') by assumption.
  unfold notify_members, params_member, jsonrpc_member, params_or_empty.
  rewrite G, L, Hn, orb_false_r. now destruct (truthy p').
Qed.
Print Assumptions C14_notification_v2.

(** a 1.0 notification has "id": null *)
Theorem C14_notification_v1 : forall (fresh : nat -> str) (jc : val -> res val) dv cfg version,
  listed_version version = true -> listed_config_version (pc_version cfg) = true ->
  forall pv m rpcid resp notify n p',
  version_number cfg version = 1 ->
  is_string m = true -> truthy resp = false -> truthy notify = true ->
  valid_params false (PVal (default_params resp pv)) = true ->
  translated jc cfg (default_params resp pv) = Ok p' ->
  dump jc fresh dv cfg (PVal pv) m rpcid version resp notify n =
  Ok (VDict [(VStr "id", VNone); (VStr "method", m); (VStr "params", if truthy p' then p' else VList [])],
      snd (id_used fresh rpcid n)).
Proof.
  intros fresh jc dv cfg version Hv Hc pv m rpcid resp notify n p' Hn Hm Hr Hno Hva Ht.
  destruct (listed_versions_resolve dv cfg version Hv Hc) as (r & Hres & G & L & Htx).
  rewrite (C14_notification_any_version fresh jc dv cfg pv m rpcid version resp notify n r "2.0" p') by assumption.
  unfold notify_members, params_member, jsonrpc_member. now rewrite G, L, Hn, orb_true_r.
Qed.
Print Assumptions C14_notification_v1.

(** a caller-supplied id — any non-empty string, any int or float including 0, 0.0, -0.0 — is used verbatim *)
Theorem C14_id_verbatim : forall (fresh : nat -> str) (jc : val -> res val) dv cfg pv m rpcid version resp notify n d n',
  (is_number rpcid || (is_string rpcid && truthy rpcid)) = true ->
  truthy resp = false -> truthy notify = false ->
  dump jc fresh dv cfg (PVal pv) m rpcid version resp notify n = Ok (VDict d, n') ->
  dget d "id" = Some rpcid /\ n' = n.
Proof.
  intros fresh jc dv cfg pv m rpcid version resp notify n d n' Hid Hr Hn H.
  apply dump_request_id in H; [|assumption..]. rewrite (supplied_id_used fresh _ _ Hid) in H. now injection H.
Qed.
Print Assumptions C14_id_verbatim.

(** otherwise (None, "", False, empty containers) the next fresh id is generated *)
Theorem C14_id_fresh : forall (fresh : nat -> str) (jc : val -> res val) dv cfg pv m rpcid version resp notify n d n',
  (negb (truthy rpcid) && negb (is_number rpcid)) = true ->
  truthy resp = false -> truthy notify = false ->
  dump jc fresh dv cfg (PVal pv) m rpcid version resp notify n = Ok (VDict d, n') ->
  dget d "id" = Some (VStr (fresh n)) /\ n' = S n.
Proof.
  intros fresh jc dv cfg pv m rpcid version resp notify n d n' F Hr Hn H.
  apply dump_request_id in H; [|assumption..]. unfold id_used, needs_fresh_id in H. rewrite F in H. now injection H.
Qed.
Print Assumptions C14_id_fresh.

(** the two classes above and "truthy, neither string nor number" (left unconstrained) cover every id value *)
Theorem C14_id_classes : forall i,
  (is_number i || (is_string i && truthy i)) = true \/ (negb (truthy i) && negb (is_number i)) = true \/
  (truthy i = true /\ is_number i = false /\ is_string i = false).
Proof.
  intros i. destruct (is_number i); [now left|]. destruct (truthy i); [|now right; left].
  destruct (is_string i); [now left|]. now right; right.
Qed.
Print Assumptions C14_id_classes.

(** generated ids are unique per call: over ANY sequence of dump calls the generated string ids are pairwise distinct *)
Theorem C14_generated_ids_distinct : forall (fresh : nat -> str) (jc : val -> res val),
  (forall a b, fresh a = fresh b -> a = b) ->
  forall dv (cs : list call) n, NoDup (filter is_string (fst (run_calls fresh jc dv cs n))).
Proof. intros fresh jc Hinj dv cs n. apply run_calls_ids, Hinj. Qed.
Print Assumptions C14_generated_ids_distinct.

Theorem C14_generated_ids_nonempty : forall (fresh : nat -> str) (jc : val -> res val),
  (forall a b, fresh a = fresh b -> a = b) -> (forall n, fresh n <> "") ->
  forall dv (cs : list call) n i, In i (fst (run_calls fresh jc dv cs n)) -> i <> VStr "".
Proof.
  intros fresh jc Hinj Hne dv cs n i Hin. apply run_calls_bound in Hin as [->|(k & _ & ->)]; [discriminate|].
  intros [= E]. exact (Hne k E).
Qed.
Print Assumptions C14_generated_ids_nonempty.

(** a result response carries exactly result, id and the version marker (2.0) / error: null (1.0) *)
Theorem C14_response_members : forall (fresh : nat -> str) (jc : val -> res val) dv cfg version,
  listed_version version = true -> listed_config_version (pc_version cfg) = true ->
  forall pv m rpcid resp notify n p',
  truthy resp = true -> rpcid <> VNone ->
  (is_string m = true -> valid_params true (PVal pv) = true) ->
  translated jc cfg pv = Ok p' ->
  dump jc fresh dv cfg (PVal pv) m rpcid version resp notify n =
  Ok (VDict (if version_number cfg version =? 2
             then [(VStr "result", p'); (VStr "id", rpcid); (VStr "jsonrpc", VStr "2.0")]
             else [(VStr "result", p'); (VStr "id", rpcid); (VStr "error", VNone)]), n).
Proof.
  intros fresh jc dv cfg version Hv Hc pv m rpcid resp notify n p' Hr Hid Hva Ht.
  destruct (listed_versions_resolve dv cfg version Hv Hc) as (r & Hres & G & _ & Htx).
  rewrite <- (default_params_response resp pv Hr) in Ht.
  rewrite (dump_pval_spec fresh jc dv cfg pv m rpcid version resp notify n r "2.0" p') by (auto using valid_response).
  unfold message, response_members. now rewrite Hr, G.
Qed.
Print Assumptions C14_response_members.

(** a result response requires an id: ValueError, no message *)
Theorem C14_response_requires_id : forall (fresh : nat -> str) (jc : val -> res val) dv cfg pv m version resp notify n r p',
  truthy resp = true ->
  (is_string m = true -> valid_params true (PVal pv) = true) ->
  resolved_version dv cfg version = Ok r -> translated jc cfg pv = Ok p' ->
  dump jc fresh dv cfg (PVal pv) m VNone version resp notify n = Raise EValue.
Proof.
  intros fresh jc dv cfg pv m version resp notify n r p' Hr Hva Hver Ht.
  rewrite dump_pval, (default_params_response resp pv Hr), Hr, Hver, Ht.
  destruct (is_string m); [rewrite (Hva eq_refl)|]; reflexivity.
Qed.
Print Assumptions C14_response_requires_id.

(** an error response carries the Fault's code, message and (when not None) data; whatever the flags and the method are *)
Theorem C14_error_members : forall (fresh : nat -> str) (jc : val -> res val) dv cfg version,
  listed_version version = true -> listed_config_version (pc_version cfg) = true ->
  forall c ms d m rpcid resp notify n,
  dump jc fresh dv cfg (PFault c ms d) m rpcid version resp notify n =
  Ok (VDict (if version_number cfg version =? 2
             then [(VStr "id", rpcid); (VStr "jsonrpc", VStr "2.0"); (VStr "error", error_object c ms d)]
             else [(VStr "result", VNone); (VStr "id", rpcid); (VStr "error", error_object c ms d)]), n).
Proof.
  intros fresh jc dv cfg version Hv Hc c ms d m rpcid resp notify n.
  destruct (listed_versions_resolve dv cfg version Hv Hc) as (r & Hres & G & _ & Htx).
  rewrite (dump_fault_spec fresh jc dv cfg c ms d m rpcid version resp notify n r "2.0") by assumption.
  unfold error_members. now rewrite G.
Qed.
Print Assumptions C14_error_members.

Theorem C14_error_object : forall c m d,
  exists e, error_object c m d = VDict e /\
    dget e "code" = Some c /\ dget e "message" = Some m /\
    (d <> VNone -> dget e "data" = Some d /\ map fst e = [VStr "code"; VStr "message"; VStr "data"]) /\
    (d = VNone -> dget e "data" = None /\ map fst e = [VStr "code"; VStr "message"]).
Proof.
  intros c m d. unfold error_object. destruct d; (eexists; split; [reflexivity|]);
    repeat split; try reflexivity; congruence.
Qed.
Print Assumptions C14_error_object.

(** Fault.dump: the forced id replaces the Fault's own only when truthy (the [if rpcid:] of the code), and is stored *)
Theorem C14_fault_dump : forall dv f rpcid version r s,
  resolved_version dv (f_cfg f) (if truthy version then version else pc_version (f_cfg f)) = Ok r ->
  (ge2 r = true -> float_str r = Ok s) ->
  fault_dump dv f rpcid version =
  (Ok (VDict (error_members r s (if truthy rpcid then rpcid else f_rpcid f) (f_code f) (f_msg f) (f_data f))),
   fault_set_rpcid f rpcid).
Proof.
  intros dv f rpcid version r s Hver Hs. unfold fault_dump, fault_params. rewrite plan_fault.
  replace (f_cfg (fault_set_rpcid f rpcid)) with (f_cfg f) by (unfold fault_set_rpcid; now destruct (truthy rpcid)).
  rewrite Hver. cbn [bind]. rewrite (version_text_str r s Hs). cbn [bind].
  unfold error_members, fault_set_rpcid. destruct (ge2 r); destruct (truthy rpcid); reflexivity.
Qed.
Print Assumptions C14_fault_dump.

Theorem C14_reject_non_container_params : forall (fresh : nat -> str) (jc : val -> res val) dv cfg pv m rpcid version resp notify n,
  is_string m = true -> valid_params (truthy resp) (PVal (default_params resp pv)) = false ->
  dump jc fresh dv cfg (PVal pv) m rpcid version resp notify n = Raise EType.
Proof.
  intros fresh jc dv cfg pv m rpcid version resp notify n Hm Hv. now rewrite dump_pval, Hm, Hv.
Qed.
Print Assumptions C14_reject_non_container_params.

Theorem C14_reject_non_string_method : forall (fresh : nat -> str) (jc : val -> res val) dv cfg pv m rpcid version resp notify n r,
  is_string m = false -> truthy resp = false ->
  resolved_version dv cfg version = Ok r ->
  dump jc fresh dv cfg (PVal pv) m rpcid version resp notify n = Raise EValue.
Proof.
  intros fresh jc dv cfg pv m rpcid version resp notify n r Hm Hr Hver. now rewrite dump_pval, Hm, Hr, Hver.
Qed.
Print Assumptions C14_reject_non_string_method.

(** ... never emit a message, for every value of the remaining arguments *)
Theorem C14_rejections_never_emit : forall (fresh : nat -> str) (jc : val -> res val) dv cfg pv m rpcid version resp notify n,
  ((negb (is_string m) && negb (truthy resp))
   || (is_string m && negb (valid_params (truthy resp) (PVal (default_params resp pv))))
   || (truthy resp && match rpcid with VNone => true | _ => false end)) = true ->
  exists e, dump jc fresh dv cfg (PVal pv) m rpcid version resp notify n = Raise e.
Proof.
  intros fresh jc dv cfg pv m rpcid version resp notify n H.
  destruct (dump jc fresh dv cfg (PVal pv) m rpcid version resp notify n) as [x|e] eqn:E; [|eauto].
  apply dump_pval_ok in E as [E _]. unfold invalid_combination in E. congruence.
Qed.
Print Assumptions C14_rejections_never_emit.

(** ... and raise TypeError or ValueError (when the version is usable and the class translation does not fail first) *)
Theorem C14_rejections : forall (fresh : nat -> str) (jc : val -> res val) dv cfg pv m rpcid version resp notify n r p',
  invalid_combination pv m rpcid resp = true ->
  resolved_version dv cfg version = Ok r -> translated jc cfg (default_params resp pv) = Ok p' ->
  dump jc fresh dv cfg (PVal pv) m rpcid version resp notify n = Raise EType \/
  dump jc fresh dv cfg (PVal pv) m rpcid version resp notify n = Raise EValue.
Proof.
  intros fresh jc dv cfg pv m rpcid version resp notify n r p' H Hver Ht. unfold invalid_combination in H.
  rewrite dump_pval, Hver, Ht. cbn [bind].
  destruct (is_string m && negb _); [now left|].
  destruct (negb (is_string m) && negb (truthy resp)); [now right|]. cbn [orb] in H. rewrite H. now right.
Qed.
Print Assumptions C14_rejections.

(** dumps is the encoded dump; loads inverts it up to JSON normalisation; loads("") is None *)
Theorem C14_dumps_is_encoded_dump : forall (fresh : nat -> str) (jc : val -> res val) (text : Type) (enc : val -> res text)
    dv cfg p m resp rpcid version notify n,
  dumps jc fresh enc dv cfg p m resp rpcid version notify n =
  (do dn <- dump jc fresh dv cfg p m rpcid version resp notify n; do t <- enc (fst dn); Ok (t, snd dn)).
Proof.
  intros. unfold dumps. now destruct (dump jc fresh dv cfg p m rpcid version resp notify n) as [[d n']|e].
Qed.
Print Assumptions C14_dumps_is_encoded_dump.

Theorem C14_loads_dumps : forall (fresh : nat -> str) (jc : val -> res val) (text : Type) (is_empty : text -> bool)
    (enc : val -> res text) (dec : text -> res val) (jl : val -> res val),
  (forall v, json_ok v = true -> exists t, enc v = Ok t /\ is_empty t = false /\ dec t = Ok (norm v)) ->
  forall dv cfg cfg' p m resp rpcid version notify n d n',
  dump jc fresh dv cfg p m rpcid version resp notify n = Ok (d, n') ->
  json_ok d = true ->
  (pc_jsonclass cfg' = false \/ jl (norm d) = Ok (norm d)) ->
  exists t, dumps jc fresh enc dv cfg p m resp rpcid version notify n = Ok (t, n')
            /\ loads is_empty dec jl cfg' t = Ok (norm d).
Proof. exact loads_dumps. Qed.
Print Assumptions C14_loads_dumps.

Theorem C14_loads_empty : forall (text : Type) (is_empty : text -> bool) (dec : text -> res val) (jl : val -> res val) cfg' t,
  is_empty t = true -> loads is_empty dec jl cfg' t = Ok VNone.
Proof. intros text is_empty dec jl cfg' t H. unfold loads. now rewrite H. Qed.
Print Assumptions C14_loads_empty.
