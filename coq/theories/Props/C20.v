(** Property C20 — serialisation customisation is honoured at every depth.

    [hfun h obj] is what the handler with id [h] returns — an arbitrary function; [cf_handlers cfg] is
    Config.serialize_handlers keyed by exact type; [reaches] (Model/JsonClass.v) lists the positions
    dump traverses; [occurs o out] says that [o] sits in [out] below list items / dict values. *)
From JR Require Import JsonClass JsonClassEq JsonClassFieldsProofs JsonClassC20Proofs.

(** a handler registered for exactly type(v) is used before any built-in handling; its return value
    (or its exception) is dump's, verbatim — for primitives, containers and beans alike *)
Theorem C20_handler_verbatim : forall hfun V E cfg sm ia ign v h,
  handler_for cfg (type_of v) = Some h -> jc_dump hfun V E cfg sm ia ign v = hfun h v.
Proof. intros * H. destruct v; cbn in *; rewrite H; reflexivity. Qed.
Print Assumptions C20_handler_verbatim.

(** a field that passes the tests IS dumped, under its name *)
Theorem C20_kept_field_emitted : forall hfun V E cfg sm ia ign c fields d ignl n x out,
  handler_for cfg (TClass c) = None -> find_class (e_ctab E) c = Some d ->
  flookup sm fields = None -> mro_find (e_ctab E) c (ser_pred sm) = None ->
  ignore_list E ia ign c fields = Ok ignl ->
  nodup_str (map fst fields) = true -> n <> "__jsonclass__" ->
  In (n, x) fields -> field_kept E cfg ignl (n, x) = true ->
  jc_dump hfun V E cfg sm ia ign (VInst c fields) = Ok out ->
  exists o m, jc_dump hfun V E cfg sm ia ign x = Ok o /\ out = VDict m /\ dget m n = Some o.
Proof.
  intros * Hh Hd Hsm Hser Hi Hnd _ Hin Hkeep H.
  apply dump_auto with (d := d) in H as [ignl' [sds [Hi' [_ [Hs [_ ->]]]]]]; try assumption.
  rewrite Hi in Hi'. injection Hi' as <-.
  destruct (mapM_snd_In_l _ _ _ n x Hs) as [o [Ho Hino]]; [now apply filter_In|].
  assert (Hnds : nodup_str (map fst sds) = true)
    by (rewrite (mapM_snd_keys Hs); now apply nodup_str_filter).
  exists o. eexists. split; [exact Ho|]. split; [reflexivity|].
  now rewrite dget_skey, flookup_fset_all, (flookup_of_In n o sds).
Qed.
Print Assumptions C20_kept_field_emitted.

(** config, names and the ignore argument are forwarded on every recursive dump: whatever sits at a
    traversed position is dumped by the same function with the same arguments *)
Theorem C20_traversed_dumped : forall hfun V E cfg sm ia ign v y,
  reaches E cfg sm ia ign v y ->
  forall out, jc_dump hfun V E cfg sm ia ign v = Ok out ->
  exists o, jc_dump hfun V E cfg sm ia ign y = Ok o /\ occurs o out.
Proof.
  intros *. induction 1 as [v | v l x y Hs Hh Hin _ IH | m k x y Hh Hin _ IH
                            | c fields d ignl n x y Hh Hd Hsm Hser Hi Hnd Hn Hin Hkeep _ IH]; intros out H.
  - exists out. split; [exact H | constructor].
  - rewrite (dump_seq _ _ _ _ _ _ _ v l Hs Hh) in H. apply bind_Ok in H as [ys [Hys [= <-]]].
    apply mapM_Ok in Hys. destruct (Forall2_In_l Hys Hin) as [o1 [Ho1 Hx]].
    destruct (IH o1 Hx) as [o [Ho Hocc]]. exists o. split; [exact Ho|]. eapply O_item; eauto.
  - rewrite dump_dict in H by exact Hh. apply bind_Ok in H as [ys [Hys [= <-]]].
    destruct (mapM_snd_In_l _ _ _ k x Hys Hin) as [o1 [Hx Ho1]].
    destruct (IH o1 Hx) as [o [Ho Hocc]]. exists o. split; [exact Ho|]. eapply O_value; eauto.
  - destruct (C20_kept_field_emitted hfun V E cfg sm ia ign c fields d ignl n x out) as [o1 [m [Hx [-> Hget]]]];
      try assumption.
    destruct (IH o1 Hx) as [o [Ho Hocc]]. exists o. split; [exact Ho|].
    destruct (In_of_assoc _ _ _ Hget) as [k' Hk']. eapply O_value; eauto.
Qed.
Print Assumptions C20_traversed_dumped.

(** ... at any nesting depth: wherever dump reaches y, the handler for type(y) produces what is emitted there *)
Theorem C20_handler_every_depth : forall hfun V E cfg sm ia ign v y h out,
  reaches E cfg sm ia ign v y -> handler_for cfg (type_of y) = Some h ->
  jc_dump hfun V E cfg sm ia ign v = Ok out ->
  exists o, hfun h y = Ok o /\ occurs o out.
Proof.
  intros * Hr Hh Hd. destruct (C20_traversed_dumped _ _ _ _ _ _ _ _ _ Hr out Hd) as [o [Ho Hocc]].
  rewrite (C20_handler_verbatim _ _ _ _ _ _ _ _ _ Hh) in Ho. eauto.
Qed.
Print Assumptions C20_handler_every_depth.

(** exact type only: the handler applied to an object of type t is an entry under t itself ... *)
Theorem C20_exact_type_only : forall cfg t h,
  handler_for cfg t = Some h -> In (t, Some h) (cf_handlers cfg).
Proof.
  intros cfg t h. unfold handler_for.
  induction (cf_handlers cfg) as [|[t' e] r IH]; cbn [handler_entry]; [discriminate|].
  destruct (tyid_eqb t t') eqn:E.
  - apply tyid_eqb_eq in E. subst t'. destruct e as [h'|]; [|discriminate]. intros [= ->]. now left.
  - intros H. right. exact (IH H).
Qed.
Print Assumptions C20_exact_type_only.

(** ... and without such an entry no handler is applied, whatever is registered for other types
    (base classes, int for a bool, ...) *)
Theorem C20_no_entry_no_handler : forall cfg t,
  (forall h, ~ In (t, Some h) (cf_handlers cfg)) -> handler_for cfg t = None.
Proof.
  intros cfg t H. destruct (handler_for cfg t) as [h|] eqn:E; [|reflexivity].
  now destruct (H h (C20_exact_type_only cfg t h E)).
Qed.
Print Assumptions C20_no_entry_no_handler.

(** attributes named in the object's ignore list or in the ignore argument never appear in its dumped form *)
Theorem C20_ignored_never_dumped : forall hfun V E cfg sm ia ign c fields d out n,
  handler_for cfg (TClass c) = None -> find_class (e_ctab E) c = Some d ->
  flookup sm fields = None -> mro_find (e_ctab E) c (ser_pred sm) = None ->
  jc_dump hfun V E cfg sm ia ign (VInst c fields) = Ok out ->
  n <> "__jsonclass__" ->
  (forall ignl, ignore_list E ia ign c fields = Ok ignl -> name_ignored n ignl = true) ->
  exists m, out = VDict m /\ dhas m n = false.
Proof.
  intros * Hh Hd Hsm Hser H Hn Hign.
  apply dump_auto with (d := d) in H as [ignl [sds [Hi [_ [Hs [_ ->]]]]]]; try assumption.
  eexists. split; [reflexivity|]. unfold dhas.
  rewrite dget_skey, flookup_fset_all_none; [reflexivity | now apply flookup_other |].
  (* a key [n] of [sds] would be a field that passed the name test *)
  destruct (flookup n sds) as [o|] eqn:Ho; [|reflexivity]. apply flookup_In in Ho.
  destruct (mapM_snd_In_r Hs Ho) as [x [_ Hin]]. apply filter_In in Hin as [_ Hk].
  unfold field_kept, name_ignored in *. cbn [fst] in Hk. now rewrite (Hign ignl Hi) in Hk.
Qed.
Print Assumptions C20_ignored_never_dumped.

Theorem C20_ignore_argument_never_dumped : forall hfun V E cfg sm ia ign c fields d out n,
  handler_for cfg (TClass c) = None -> find_class (e_ctab E) c = Some d ->
  flookup sm fields = None -> mro_find (e_ctab E) c (ser_pred sm) = None ->
  jc_dump hfun V E cfg sm ia ign (VInst c fields) = Ok out ->
  n <> "__jsonclass__" -> In (VStr n) ign ->
  exists m, out = VDict m /\ dhas m n = false.
Proof.
  intros * Hh Hd Hsm Hser H Hn Hin. apply (C20_ignored_never_dumped _ _ _ _ _ _ _ _ _ _ _ _ Hh Hd Hsm Hser H Hn).
  intros ignl Hi. exact (ignore_argument_ignored Hi Hin).
Qed.
Print Assumptions C20_ignore_argument_never_dumped.

(** fields of neither a supported nor a handled type are omitted, not a failure: every key of the
    dumped form (other than "__jsonclass__") is a field whose value passed the type test, and only
    those values are handed to dump *)
Theorem C20_unsupported_omitted : forall hfun V E cfg sm ia ign c fields d out n y,
  handler_for cfg (TClass c) = None -> find_class (e_ctab E) c = Some d ->
  flookup sm fields = None -> mro_find (e_ctab E) c (ser_pred sm) = None ->
  jc_dump hfun V E cfg sm ia ign (VInst c fields) = Ok out ->
  n <> "__jsonclass__" ->
  (exists m, out = VDict m /\ dget m n = Some y) ->
  exists x, In (n, x) fields /\ known_type E cfg x = true /\ jc_dump hfun V E cfg sm ia ign x = Ok y.
Proof.
  intros * Hh Hd Hsm Hser H Hn [m [Hm Hy]].
  apply dump_auto with (d := d) in H as [ignl [sds [_ [_ [Hs [_ ->]]]]]]; try assumption.
  injection Hm as <-. rewrite dget_skey in Hy.
  apply flookup_fset_all_some in Hy as [Hy|Hy]; [now rewrite flookup_other in Hy|].
  destruct (mapM_snd_In_r Hs Hy) as [x [Hx Hin]]. apply filter_In in Hin as [Hin Hk].
  apply andb_true_iff in Hk as [_ Hk]. apply andb_true_iff in Hk as [Hk _]. eauto.
Qed.
Print Assumptions C20_unsupported_omitted.

(** the names consulted: the explicit argument when given and non-empty, the Config's otherwise ... *)
Theorem C20_configured_names : forall cfg arg,
  norm_name arg (cf_ser cfg) = match arg with Some s => if String.eqb s "" then cf_ser cfg else s | None => cf_ser cfg end.
Proof. reflexivity. Qed.
Print Assumptions C20_configured_names.

(** ... the method of exactly that name decides the form (its (params, attrs) verbatim) ... *)
Theorem C20_method_consulted : forall hfun V E cfg sm ia ign c fields d ds,
  handler_for cfg (TClass c) = None -> find_class (e_ctab E) c = Some d -> flookup sm fields = None ->
  mro_find (e_ctab E) c (ser_pred sm) = Some ds ->
  jc_dump hfun V E cfg sm ia ign (VInst c fields) =
  do pa <- serialize_call ds fields;
  Ok (descriptor_dict (VStr (dump_name d)) (fst pa) (map (fun kx => (VStr (fst kx), snd kx)) (snd pa))).
Proof. intros *. apply dump_method. Qed.
Print Assumptions C20_method_consulted.

Theorem C20_method_has_configured_name : forall E c sm ds,
  mro_find (e_ctab E) c (ser_pred sm) = Some ds -> c_ser_name ds = sm /\ sm <> "".
Proof.
  intros * H. apply mro_find_pred in H. unfold ser_pred in H. apply andb_true_iff in H as [H1 H2].
  apply String.eqb_eq in H2. split; [exact H2|]. intros ->. discriminate H1.
Qed.
Print Assumptions C20_method_has_configured_name.

(** ... and the ignore list read is the attribute of exactly the configured name, no other spelling *)
Theorem C20_ignore_attribute_has_configured_name : forall E c ia d,
  mro_find (e_ctab E) c (ign_pred ia) = Some d -> exists x, c_ign d = Some (ia, x).
Proof.
  intros * H. apply mro_find_pred in H. unfold ign_pred in H. destruct (c_ign d) as [[n x]|]; [|discriminate H].
  apply String.eqb_eq in H. subst n. eauto.
Qed.
Print Assumptions C20_ignore_attribute_has_configured_name.
