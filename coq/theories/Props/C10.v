(** Property C10 — pool concurrency is bounded by max_threads, at least min_threads workers
    serve the queue between start() and stop(), constructor arguments are validated / clamped.
    Same quantification as Props/C09.v.

    The growth clause ("a waiting task is started without waiting for a running one while an idle
    worker exists or fewer than max_threads workers exist") is proved in its safety form
    (C10_growth, C10_growth_at_rest): in every reachable state of a running pool every unfinished
    item has its own worker that will still take an item — up to the threads start() is still
    committed to create and the one thread an enqueue() in flight is about to create — unless
    max_threads workers exist.  That an idle worker blocked in Queue.get is woken by a put is the
    queue's contract (trusted); that the scheduler eventually runs a runnable thread is fairness:
    both are outside the model and are exercised on the implementation by the oracle
    (dependent, gate-blocked workloads must not stall). *)
From JR Require Import PoolInvDefs PoolInvE PoolInvG PoolInvH PoolSafety PoolLifecycle PoolGrowth PoolReach.

Theorem C10_ctor : forall mx mn,
  (pool_ctor mx mn = None <-> mx < 1) /\
  (forall a b, pool_ctor mx mn = Some (a, b) -> a = mx /\ valid_cfg a b /\
               b = (if mn <? 0 then 0 else if mx <? mn then mx else mn)).
Proof.
  intros mx mn. unfold pool_ctor, valid_cfg. destruct (Z.ltb_spec mx 1).
  - split; [split; auto|]. intros a b E; discriminate E.
  - split; [split; [discriminate | lia]|].
    intros a b [= <- <-]. split; [reflexivity|]. split; [|reflexivity].
    destruct (Z.ltb_spec mn 0), (Z.ltb_spec mx mn); lia.
Qed.
Print Assumptions C10_ctor.

(** at every instant: task bodies running <= workers still serving the queue = the thread counter <= max_threads *)
Theorem C10_max_bound : forall mx mn progs sched,
  valid_cfg mx mn ->
  let s := run sched (init mx mn progs) in
  (count in_body (ws s) (next_w s) <= count serving (ws s) (next_w s))%nat /\
  Z.of_nat (count serving (ws s) (next_w s)) = nb_threads s /\ nb_threads s <= mx.
Proof.
  intros mx mn progs sched Hv s. pose proof (Inv_reachable mx mn progs sched Hv : Inv mx mn s) as R.
  pose proof (j_inv1 _ (v_inv2 R)) as I.
  split; [|split].
  - apply count_le. intros i _. unfold in_body, serving. destruct (wpc (ws s i)); auto; discriminate.
  - symmetry. apply (i_nb _ I).
  - rewrite <- (v_max R). apply (i_bound _ I).
Qed.
Print Assumptions C10_max_bound.

(** from the return of start() until stop() is called: at least min_threads workers serve the queue *)
Theorem C10_min_bound : forall mx mn progs sched,
  valid_cfg mx mn ->
  let s := run sched (init mx mn progs) in
  start_done s = true -> mn <= nb_threads s /\ nb_threads s = Z.of_nat (count serving (ws s) (next_w s)).
Proof.
  intros mx mn progs sched Hv s Hsd. pose proof (Inv_reachable mx mn progs sched Hv : Inv mx mn s) as R.
  pose proof (v_inv2 R) as J.
  split; [rewrite <- (v_min R); apply (j_min _ J), Hsd | apply (i_nb _ (j_inv1 _ J))].
Qed.
Print Assumptions C10_min_bound.

(** growth, every instant of a running pool (except where start() has cleared the flag and not yet read the
    backlog, ctl s = CSTQsize): items not finished <= workers counted in nb_threads and not retiring + threads the
    controller is still committed to create, or max_threads is reached; one less while an enqueue() is between its
    put() and its thread start *)
Theorem C10_growth : forall mx mn progs sched,
  valid_cfg mx mn ->
  let s := run sched (init mx mn progs) in
  stopped s = false -> ctl s <> CSTQsize ->
  let backlog := Z.of_nat (length (q s)) + Z.of_nat (count holding (ws s) (next_w s)) in
  let takers := Z.of_nat (count serving (ws s) (next_w s)) - Z.of_nat (count retiring (ws s) (next_w s)) in
  ((forall c, ewin (cpc (cs s c)) = false) ->
     backlog <= takers + need 0 (ctl s) \/ mx <= nb_threads s + need 0 (ctl s)) /\
  (forall c, ewin (cpc (cs s c)) = true ->
     backlog - 1 <= takers + need 0 (ctl s) \/ mx <= nb_threads s + need 0 (ctl s)).
Proof.
  intros mx mn progs sched Hv s. pose proof (Inv_reachable mx mn progs sched Hv : Inv mx mn s) as R.
  rewrite <- (v_max R). exact (growth_general s (v_inv2 R) (v_growth R)).
Qed.
Print Assumptions C10_growth.

(** growth at rest (start() has returned, stop() not called, no enqueue() in flight): every queued
    item has its own idle worker, or max_threads workers exist *)
Theorem C10_growth_at_rest : forall mx mn progs sched,
  valid_cfg mx mn ->
  let s := run sched (init mx mn progs) in
  start_done s = true -> (forall c, ewin (cpc (cs s c)) = false) ->
  let idle := Z.of_nat (count serving (ws s) (next_w s)) - Z.of_nat (count retiring (ws s) (next_w s))
              - Z.of_nat (count holding (ws s) (next_w s)) in
  (Z.of_nat (length (q s)) <= idle \/ nb_threads s = mx) /\
  (q s <> [] -> 1 <= nb_threads s).
Proof.
  intros mx mn progs sched Hv s. pose proof (Inv_reachable mx mn progs sched Hv : Inv mx mn s) as R.
  rewrite <- (v_max R). exact (growth_at_rest s (v_inv2 R) (v_growth R)).
Qed.
Print Assumptions C10_growth_at_rest.

(** the growth clause in the form of DESIGN 4/C10: at rest, a waiting task implies a serving worker outside
    every task body, or max_threads task bodies running *)
Theorem C10_growth_progress : forall mx mn progs sched,
  valid_cfg mx mn ->
  let s := run sched (init mx mn progs) in
  start_done s = true -> (forall c, ewin (cpc (cs s c)) = false) -> q s <> [] ->
  (exists w, (w < next_w s)%nat /\ serving (ws s w) = true /\ in_body (ws s w) = false) \/
  Z.of_nat (count in_body (ws s) (next_w s)) = mx.
Proof.
  intros mx mn progs sched Hv s Hsd Hall Hq.
  destruct (C10_growth_at_rest mx mn progs sched Hv Hsd Hall) as [G _].
  destruct (C10_max_bound mx mn progs sched Hv) as (Hbs & Hn & _). fold s in G, Hbs, Hn.
  assert (Hbh : (count in_body (ws s) (next_w s) <= count holding (ws s) (next_w s))%nat).
  { apply count_le. intros i _. unfold in_body, holding. destruct (wpc (ws s i)); try discriminate; reflexivity. }
  assert (Hlen : (1 <= length (q s))%nat) by (destruct (q s); [congruence | cbn; lia]).
  destruct (Nat.eq_dec (count in_body (ws s) (next_w s)) (count serving (ws s) (next_w s))) as [E|Hne].
  - (* every serving worker is in a body: no idle one for the queued item, so max_threads is reached *)
    destruct G as [G|G]; [exfalso; lia | right; rewrite E; lia].
  - left. apply (count_lt_witness in_body serving). lia.
Qed.
Print Assumptions C10_growth_progress.
