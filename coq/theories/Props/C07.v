(** Property C07 — objects survive dump/load wherever they occur, for every supported class shape.

    [E] is an arbitrary class table (attribute-dict, slotted, inherited, serialisation-method classes,
    enums, Decimal; module-qualified or local), [cf_classes cfg] the configuration's local class table,
    [supported] the computable domain predicate of Model/JsonClass.v (see its comment), [normi] the
    normalisation "tuples and sets become lists" applied also inside instances.  [fixed] is the
    repaired code (F4: `classes` forwarded into lists and dicts; F15: private slot names); the pinned
    variants are refuted in Examples/C07_examples.v. *)
From JR Require Import JsonClass JsonClassEq JsonClassC07Proofs JsonClassFieldsProofs.

(** load(dump(v)) is v (same classes, same field names, equal values) up to tuples/sets becoming
    lists — for every supported object graph: beans at the top, in lists / tuples / dict values, at any
    depth, and inside the containers held by fields of other beans (nested induction over [val]) *)
Theorem C07_roundtrip : forall hfun E cfg sm ia v,
  no_handlers cfg = true -> supported E (cf_classes cfg) sm ia v = true ->
  exists d, jc_dump hfun fixed E cfg sm ia [] v = Ok d /\
            lres_val (jc_load_m fixed E (cf_classes cfg) d) = Ok (normi v).
Proof. intros * Hnh. now apply roundtrip_supported. Qed.
Print Assumptions C07_roundtrip.

(** an instance comes back as an instance of the same class with the same field names *)
Theorem C07_same_class : forall hfun E cfg sm ia c fs,
  no_handlers cfg = true -> supported E (cf_classes cfg) sm ia (VInst c fs) = true ->
  exists d fs', jc_dump hfun fixed E cfg sm ia [] (VInst c fs) = Ok d /\
                lres_val (jc_load_m fixed E (cf_classes cfg) d) = Ok (VInst c fs') /\
                map fst fs' = map fst fs.
Proof.
  intros * Hnh Hs. destruct (C07_roundtrip hfun E cfg sm ia _ Hnh Hs) as [d [Hd Hl]].
  exists d, (map (fun kv => (fst kv, normi (snd kv))) fs). split; [exact Hd|]. split; [exact Hl|].
  now rewrite map_map.
Qed.
Print Assumptions C07_same_class.

(** identically when the object travels as a parameter or as a result of a remote call: through the
    use_jsonclass gates of jsonrpc.dump and jsonrpc.load with the configured names (the JSON text in
    between is taken to be the identity on the JSON values dump produces, as the [wire] of Model/EndToEnd.v) *)
Theorem C07_rpc : forall hfun E cfg v,
  cf_use cfg = true -> no_handlers cfg = true ->
  supported E (cf_classes cfg) (norm_name None (cf_ser cfg)) (norm_name None (cf_ign cfg)) v = true ->
  exists d, rpc_dump_params hfun fixed E cfg v = Ok d /\
            lres_val (rpc_load fixed E cfg d) = Ok (normi v).
Proof.
  intros * Hu Hnh Hs. destruct (C07_roundtrip hfun E cfg _ _ v Hnh Hs) as [d [Hd Hl]].
  exists d. unfold rpc_dump_params, jc_dump_top, rpc_load. rewrite Hu. split; [exact Hd|].
  destruct d; exact Hl.
Qed.
Print Assumptions C07_rpc.

(** the "reload" conjunct of [supported] holds for every instance that carries the attributes of its
    constructor first (whatever their values) and no attribute name twice: constructing the class anew
    and assigning all attributes gives the attribute map back *)
Theorem C07_wf_instance_reloads : forall init head tail,
  map fst init = map fst head -> nodup_str (map fst (head ++ tail)) = true ->
  fset_all init (head ++ tail) = (head ++ tail)%list.
Proof. exact reload_of_wf_instance. Qed.
Print Assumptions C07_wf_instance_reloads.

(** on plain data [normi] is the [norm] of C15 *)
Theorem C07_normi_plain : forall v, plain v = true -> normi v = norm v.
Proof.
  induction v using val_ind_in; intros Hp; try discriminate Hp; try reflexivity; simpl in *; f_equal.
  1-4: apply map_ext_in; intros x Hx; exact (H x Hx (forallb_In Hp Hx)).
  apply map_ext_in. intros [k x] Hx. cbn [fst snd]. now rewrite (proj2 (H k x Hx) (forallb_In Hp Hx)).
Qed.
Print Assumptions C07_normi_plain.
