(** Property C02 — every request body gets a well-formed reply and the dispatcher never raises.
    "Every character sequence" = every outcome of jsonrpclib.loads on it
    ([parse_outcome]: empty text, parse / translation error, or a parsed value). *)
From JR Require Import Dispatch DispatchProofs DispatchTheorems.

(** for every body, every registry, every server version, pool and dispatch function: the marshaled
    entry point returns (does not raise) and the reply is empty, one well-formed object, or a
    non-empty array of well-formed objects — provided the callables' results stay
    JSON-representable after conversion ([results_dumpable]) *)
Theorem C02_total_wellformed : forall body sigs srvf srv dm (p : parse_outcome),
  results_dumpable body (sv_jsonclass srv) ->
  exists r log, marshaled_dispatch body sigs srvf srv dm p = Ok (r, log) /\ wf_reply r = true.
Proof.
  intros body sigs srvf srv dm p R. destruct (marshaled_total body sigs srvf srv dm p R) as (r & log & E).
  exists r, log. split; [exact E|]. eapply marshaled_wf; eauto.
Qed.
Print Assumptions C02_total_wellformed.

(** each single answer is a well-formed object for its protocol version, whatever the callables do *)
Theorem C02_answer_wellformed : forall body sigs srvf srv dm e o log,
  answer_entry body sigs srvf srv dm e = (Some o, log) -> wf_obj o = true.
Proof. exact answer_wf. Qed.
Print Assumptions C02_answer_wellformed.

(** and JSON-serialisable (so json.dumps cannot raise) *)
Theorem C02_answer_serialisable : forall body sigs srvf srv dm e o log,
  results_dumpable body (sv_jsonclass srv) ->
  answer_entry body sigs srvf srv dm e = (Some o, log) -> dumpable o = true.
Proof. exact @answer_dumpable. Qed.
Print Assumptions C02_answer_serialisable.

(** the objects built by the dispatcher are well-formed by construction *)
Theorem C02_error_object_wellformed : forall f i c m, wf_obj (err_obj f i c m) = true.
Proof. exact wf_err_obj. Qed.
Print Assumptions C02_error_object_wellformed.

Theorem C02_response_object_wellformed : forall f i v, wf_obj (resp_obj f i v) = true.
Proof. exact wf_resp_obj. Qed.
Print Assumptions C02_response_object_wellformed.

(** do_POST answers 200 with that reply (the 500 path is unreachable under the hypothesis) *)
Theorem C02_http_status : forall body sigs srvf srv dm (p : parse_outcome),
  results_dumpable body (sv_jsonclass srv) ->
  exists r, do_post body sigs srvf srv dm p = (200, r) /\ wf_reply r = true.
Proof.
  intros body sigs srvf srv dm p R. destruct (C02_total_wellformed body sigs srvf srv dm p R) as (r & log & E & W).
  exists r. now rewrite (do_post_ok E).
Qed.
Print Assumptions C02_http_status.

(** whatever the callables return, the body do_POST sends is a well-formed reply (on the 500 path too) *)
Theorem C02_http_body_always_wellformed : forall body sigs srvf srv dm (p : parse_outcome),
  wf_reply (snd (do_post body sigs srvf srv dm p)) = true.
Proof.
  intros body sigs srvf srv dm p.
  destruct (marshaled_dispatch body sigs srvf srv dm p) as [[r log]|x] eqn:E.
  - rewrite (do_post_ok E). eapply marshaled_wf; eauto.
  - rewrite (do_post_raised E). apply wf_err_obj.
Qed.
Print Assumptions C02_http_body_always_wellformed.
