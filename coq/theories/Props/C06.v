(** Property C06 — the client never swallows or mistypes a server-reported error. *)
From JR Require Import Client ClientProofs.
From Coq Require Import Lia.

(** every reply with a non-empty error raises ProtocolError (or its subclass AppError):
    never a value, never another exception type *)
Theorem C06_error_raises_protocol : forall m e,
  envelope_ok m = true -> dget m "error" = Some e -> truthy e = true ->
  exists x, check_for_errors (VDict m) = Raise x /\ is_protocol_error x = true.
Proof.
  intros m e Henv He Ht. exists (raise_for_error e).
  split; [now apply check_error_dict|apply raise_for_error_is_protocol].
Qed.
Print Assumptions C06_error_raises_protocol.

(** numeric codes within [-32700, -32000]: plain ProtocolError((code, message)) *)
Theorem C06_predefined_range : forall m em c,
  envelope_ok m = true -> dget m "error" = Some (VDict em) -> truthy (VDict em) = true ->
  dget em "code" = Some c -> is_numeric c = true -> in_reserved_range c = true ->
  check_for_errors (VDict m) = Raise (EProtocol (VTuple [c; error_message em])).
Proof. exact predefined_range. Qed.
Print Assumptions C06_predefined_range.

(** every other code, numeric or not: AppError((code, message, data)), data() exposes data *)
Theorem C06_application_code : forall m em c,
  envelope_ok m = true -> dget m "error" = Some (VDict em) -> truthy (VDict em) = true ->
  dget em "code" = Some c -> (is_numeric c && in_reserved_range c) = false ->
  check_for_errors (VDict m) = Raise (EApp (VTuple [c; error_message em; error_data em]))
  /\ app_error_data (EApp (VTuple [c; error_message em; error_data em])) = Some (error_data em).
Proof.
  intros m em c Henv He Ht Hc Hn. rewrite (check_error_dict Henv He Ht).
  cbn [raise_for_error]. now rewrite Hc, Hn.
Qed.
Print Assumptions C06_application_code.

(** the range test is the interval of the statement *)
Theorem C06_range_is_interval : forall z,
  in_reserved_range (VInt z) = true <-> (-32700 <= z <= -32000).
Proof. exact in_reserved_range_int. Qed.
Print Assumptions C06_range_is_interval.

Theorem C06_range_is_interval_float : forall n d,
  in_reserved_range (VFlt (F n d)) = true <-> (-32700 * Zpos d <= n <= -32000 * Zpos d).
Proof.
  intros n d. unfold in_reserved_range, rat_leb, rat_of_Z; cbn [num_of fst snd].
  rewrite andb_true_iff, !Z.leb_le. lia.
Qed.
Print Assumptions C06_range_is_interval_float.

(** foreign error shapes *)
Theorem C06_codeless_single_entry : forall m k v,
  envelope_ok m = true -> dget m "error" = Some (VDict [(k, v)]) ->
  dget [(k, v)] "code" = None ->
  check_for_errors (VDict m) = Raise (EProtocol v).
Proof.
  intros m k v Henv He Hc. rewrite (check_error_dict Henv He eq_refl).
  cbn [raise_for_error]. now rewrite Hc.
Qed.
Print Assumptions C06_codeless_single_entry.

Theorem C06_codeless_object : forall m em,
  envelope_ok m = true -> dget m "error" = Some (VDict em) -> truthy (VDict em) = true ->
  dget em "code" = None -> length em <> 1%nat ->
  check_for_errors (VDict m) = Raise (EProtocol (VDict em)).
Proof.
  intros m em Henv He Ht Hc Hl. rewrite (check_error_dict Henv He Ht).
  cbn [raise_for_error]. rewrite Hc. destruct em as [|[k v] [|]]; try reflexivity. now elim Hl.
Qed.
Print Assumptions C06_codeless_object.

Theorem C06_non_object_error : forall m e,
  envelope_ok m = true -> dget m "error" = Some e -> truthy e = true -> is_dict e = false ->
  check_for_errors (VDict m) = Raise (EProtocol e).
Proof. intros m e Henv He Ht Hd. rewrite (check_error_dict Henv He Ht). now destruct e. Qed.
Print Assumptions C06_non_object_error.

(** null or absent error with a result member: the result is returned unchanged *)
Theorem C06_result_unchanged : forall m v,
  envelope_ok m = true ->
  (dget m "error" = None \/ dget m "error" = Some VNone) ->
  dget m "result" = Some v ->
  check_for_errors (VDict m) = Ok (VDict m) /\ proxy_result (VDict m) = Ok v.
Proof.
  intros m v Henv He Hr.
  assert (Hc : check_for_errors (VDict m) = Ok (VDict m)).
  { rewrite check_envelope by eauto using dget_some_nonempty. rewrite (dhas_of_dget _ _ _ Hr).
    destruct He as [-> | ->]; reflexivity. }
  split; [exact Hc|]. unfold proxy_result. rewrite Hc. cbn [bind py_getitem hashable].
  unfold dget in Hr. now rewrite Hr.
Qed.
Print Assumptions C06_result_unchanged.

(** every batch position behaves as the single reply *)
Theorem C06_same_at_every_batch_position : forall pre r post,
  multicall_get (pre ++ r :: post) (length pre) = proxy_result r.
Proof.
  intros. unfold multicall_get. rewrite nth_error_app2 by lia. now rewrite Nat.sub_diag.
Qed.
Print Assumptions C06_same_at_every_batch_position.

Theorem C06_iteration : forall pre r post vs,
  Forall2 (fun item v => proxy_result item = Ok v) pre vs ->
  multicall_iter (pre ++ r :: post) =
  (map Ok vs ++ match proxy_result r with Ok v => Ok v :: multicall_iter post | Raise e => [Raise e] end)%list.
Proof.
  intros pre r post vs. induction 1 as [|item v pre vs Hv _ IH]; cbn [app map multicall_iter].
  - reflexivity.
  - now rewrite Hv, IH.
Qed.
Print Assumptions C06_iteration.

(** a notification call is not exempt: an error reported in the reply to it raises exactly as for a call *)
Theorem C06_notification_call : forall r,
  c06_run PNotify r = [match check_for_errors r with Ok _ => Ok VNone | Raise e => Raise e end].
Proof. intros r. unfold c06_run. destruct (check_for_errors r); reflexivity. Qed.
Print Assumptions C06_notification_call.
