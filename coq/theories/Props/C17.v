(** Property C17 — wire framing is exact and body reassembly is independent of chunking. *)
From JR Require Import Wire WireProofs.
Local Open Scope N_scope.

(** the concrete UTF-8 codec round-trips every string of Unicode scalar values *)
Theorem C17_utf8_roundtrip : forall s : text,
  forallb is_scalar s = true -> utf8_dec (utf8_enc s) = Ok s.
Proof. exact utf8_roundtrip. Qed.
Print Assumptions C17_utf8_roundtrip.

Theorem C17_to_from_bytes : forall (s : text) (b : bytes),
  to_bytes (PStr s) = Ok b -> from_bytes (PBytes b) = Ok s.
Proof.
  intros s b. cbn. destruct (forallb is_scalar s) eqn:Hs; [|discriminate]. intros [= <-]. now apply utf8_roundtrip.
Qed.
Print Assumptions C17_to_from_bytes.

(** client request: whatever custom headers are pushed, the header block carries exactly one
    Content-Length, the decimal byte length of the bytes sent ([to_bytes body]), and exactly one
    Content-Type, the configured one *)
Theorem C17_content_length_client : forall ct ua custom body hs b,
  send_content ct ua custom body = Ok (hs, b) ->
  to_bytes body = Ok b
  /\ hdr_values "content-length" hs = [str_of_N (blen b)]
  /\ N_of_str (str_of_N (blen b)) = Some (blen b)
  /\ hdr_values "content-type" hs = [ct].
Proof. exact send_content_framing. Qed.
Print Assumptions C17_content_length_client.

(** server reply (the framing step shared by the 200 and the 500 path) *)
Theorem C17_content_length_server : forall status ct response r,
  reply_of status ct response = Ok r ->
  to_bytes (PStr response) = Ok (rp_body r)
  /\ hdr_values "content-length" (rp_headers r) = [str_of_N (blen (rp_body r))]
  /\ N_of_str (str_of_N (blen (rp_body r))) = Some (blen (rp_body r))
  /\ hdr_values "content-type" (rp_headers r) = [ct].
Proof. exact reply_framing. Qed.
Print Assumptions C17_content_length_server.

(** every reply do_POST emits, whatever was read and whatever the dispatcher did *)
Theorem C17_content_length_do_post : forall M ct clen f dispatch fault seen r,
  do_post M ct clen f dispatch fault = (seen, Ok r) ->
  hdr_values "content-length" (rp_headers r) = [str_of_N (blen (rp_body r))]
  /\ hdr_values "content-type" (rp_headers r) = [ct].
Proof.
  intros M ct clen f dispatch fault seen r H. apply do_post_reply in H as (st & t & Hr).
  apply reply_framing in Hr. tauto.
Qed.
Print Assumptions C17_content_length_do_post.

Theorem C17_content_length_cgi : forall ct response hs b,
  cgi_reply ct response = Ok (hs, b) ->
  to_bytes (PStr response) = Ok b
  /\ hdr_values "content-length" hs = [str_of_N (blen b)]
  /\ N_of_str (str_of_N (blen b)) = Some (blen b)
  /\ hdr_values "content-type" hs = [ct].
Proof.
  intros ct response hs b. unfold cgi_reply. destruct (to_bytes (PStr response)) as [b'|e]; cbn [bind]; [|discriminate].
  intros [= <- <-]. cbn. repeat split. apply N_of_str_of_N.
Qed.
Print Assumptions C17_content_length_cgi.

(** request target: path plus query unchanged; "/" for an empty path; "/" plus the query for unix+ URLs *)
Theorem C17_request_target : forall scheme path query tr p,
  proxy_init scheme path query tr = Ok p ->
  request_target p =
  ((if prefixb "unix+" scheme then "/" else if String.eqb path "" then "/" else path)
     ++ (if String.eqb query "" then "" else "?" ++ query))%string.
Proof.
  intros scheme path query tr p. rewrite proxy_init_eq. destruct (accepted scheme tr); intros [= <-].
  unfold request_target. cbn [px_handler px_query].
  destruct (String.eqb query ""); [now rewrite append_nil_r | reflexivity].
Qed.
Print Assumptions C17_request_target.

(** schemes: the accepted ones build a proxy, every other one raises IOError (OSError) at construction *)
Theorem C17_scheme_rejected : forall scheme path query tr,
  (accepted scheme tr = true -> exists p, proxy_init scheme path query tr = Ok p)
  /\ (accepted scheme tr = false -> proxy_init scheme path query tr = Raise EOS).
Proof.
  intros scheme path query tr. rewrite proxy_init_eq. destruct (accepted scheme tr); split; eauto; discriminate.
Qed.
Print Assumptions C17_scheme_rejected.

Theorem C17_accepted_schemes : forall scheme tr,
  accepted scheme tr = true <->
  (scheme = "http" \/ scheme = "https" \/ scheme = "unix+http" \/ (scheme = "unix+https" /\ tr = true))%string.
Proof.
  intros scheme tr. unfold accepted. rewrite !orb_true_iff, andb_true_iff, !String.eqb_eq. tauto.
Qed.
Print Assumptions C17_accepted_schemes.

(** client reassembly: for every list of chunks fed to the target, close() is the conversion of the whole *)
Theorem C17_client_reassembly : forall chunks : list bytes,
  target_close (fold_left target_feed chunks target_init) = decode_whole (concat chunks).
Proof. exact client_reassembly. Qed.
Print Assumptions C17_client_reassembly.

Theorem C17_client_reassembly_valid : forall (chunks : list bytes) (s : text),
  utf8_dec (concat chunks) = Ok s ->
  target_close (fold_left target_feed chunks target_init) = PStr s.
Proof. intros chunks s H. rewrite client_reassembly. now apply decode_whole_valid. Qed.
Print Assumptions C17_client_reassembly_valid.

(** parse_response: the result does not depend on how the body is split into reads *)
Theorem C17_parse_response_chunking : forall sizes sizes' b,
  parse_stream sizes (Ok b) = parse_stream sizes' (Ok b).
Proof. intros. now rewrite !parse_stream_whole. Qed.
Print Assumptions C17_parse_response_chunking.

Theorem C17_parse_response_identity : forall gunz sizes b s,
  utf8_dec b = Ok s -> parse_response gunz false sizes b = Ok (PStr s).
Proof.
  intros gunz sizes b s H. unfold parse_response. now rewrite parse_stream_whole, (decode_whole_valid b s).
Qed.
Print Assumptions C17_parse_response_identity.

(** gzip responses: for every gzip pair with [gunz (gz b) = Ok b], parsing the encoded response is
    parsing the identity response, for every pair of read scripts *)
Theorem C17_gzip : forall (gz : bytes -> bytes) (gunz : bytes -> res bytes),
  (forall b, gunz (gz b) = Ok b) ->
  forall sizes sizes' b,
    parse_response gunz true sizes (gz b) = parse_response gunz false sizes' b.
Proof.
  intros gz gunz H sizes sizes' b. unfold parse_response. rewrite H. apply C17_parse_response_chunking.
Qed.
Print Assumptions C17_gzip.

(** server reassembly (repaired code): for every chunk size M > 0, every body and every script of
    (positive) short-read sizes, the text handed to the dispatcher is the decoding of the whole body *)
Theorem C17_server_reassembly : forall M (s : bytes) caps,
  0 < M -> forallb (fun c => 0 <? c) caps = true ->
  server_body M (blen s) (s, caps) = utf8_dec s.
Proof. exact server_reassembly. Qed.
Print Assumptions C17_server_reassembly.

Theorem C17_server_reassembly_text : forall M (t : text) caps,
  0 < M -> forallb (fun c => 0 <? c) caps = true -> forallb is_scalar t = true ->
  server_body M (blen (utf8_enc t)) (utf8_enc t, caps) = Ok t.
Proof. intros M t caps HM Hcaps Ht. rewrite server_reassembly by assumption. now apply utf8_roundtrip. Qed.
Print Assumptions C17_server_reassembly_text.

(** a declared length shorter than the stream (pipelined data follows): exactly the declared bytes *)
Theorem C17_server_reassembly_prefix : forall M clen (s : bytes) caps,
  0 < M -> forallb (fun c => 0 <? c) caps = true -> clen <= blen s ->
  server_body M clen (s, caps) = utf8_dec (takeN clen s).
Proof.
  intros M clen s caps HM Hcaps Hlen. destruct (server_body_reads M clen s caps) as (n & _ & H & ->).
  now rewrite H.
Qed.
Print Assumptions C17_server_reassembly_prefix.

(** any script at all (empty reads, early end of file, M = 0): the loop ends within its fuel and decodes
    a prefix of the stream no longer than the declared length *)
Theorem C17_server_body_total : forall M clen (s : bytes) caps,
  exists n, n <= clen /\ server_body M clen (s, caps) = utf8_dec (takeN n s).
Proof. intros M clen s caps. destruct (server_body_reads M clen s caps) as (n & H & _ & E). eauto. Qed.
Print Assumptions C17_server_body_total.

Theorem C17_do_post_sees_whole : forall M ct (s : bytes) caps dispatch fault,
  0 < M -> forallb (fun c => 0 <? c) caps = true ->
  fst (do_post M ct (blen s) (s, caps) dispatch fault) =
  match utf8_dec s with Ok t => Some t | Raise _ => None end.
Proof.
  intros M ct s caps dispatch fault HM Hcaps. unfold do_post. rewrite server_reassembly by assumption.
  destruct (utf8_dec s) as [t|e]; [|reflexivity]. destruct (dispatch t) as [[r|]|e]; reflexivity.
Qed.
Print Assumptions C17_do_post_sees_whole.
