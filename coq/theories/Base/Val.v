(** * Val — the value universe shared by every sequential model.

    Python values as they occur in jsonrpclib's API: JSON data, the extra
    container kinds jsonclass accepts, instances of user classes, and an
    opaque constructor for unsupported objects.

    Strings are Coq [string]s holding the UTF-8 bytes of the Python [str].
    Every string operation the library performs (equality, emptiness, prefix,
    split on '.', substring, the module-name character class, ASCII
    lower-casing) gives the same answer on UTF-8 bytes as on code points
    (UTF-8 is self-synchronising and every byte of a non-ASCII character is
    >= 128).  Code points only matter for C17, which has its own model.

    Integers are unbounded [Z].  Floats are never computed with: they are
    carried, compared for identity and compared against integer bounds, so a
    finite float is the exact rational [n / d] that [float.as_integer_ratio]
    returns (plus a separate negative zero).  *)

From Coq Require Export String ZArith List Bool.
Export ListNotations.
Open Scope string_scope.
Open Scope Z_scope.

Definition str := string.

Inductive flt :=
| F (n : Z) (d : positive)       (* exactly n/d ; from as_integer_ratio, or from a decimal string *)
| FNegZero.                      (* -0.0 *)

Inductive val :=
| VNone
| VBool (b : bool)
| VInt (z : Z)
| VFlt (f : flt)
| VStr (s : str)
| VList (l : list val)
| VTuple (l : list val)
| VSet (l : list val)                  (* carried in iteration order *)
| VFrozen (l : list val)
| VDict (m : list (val * val))         (* insertion ordered, keys unique w.r.t. Python == *)
| VInst (c : str) (fields : list (str * val))  (* instance of class [c] of the class table *)
| VDec (repr : str)                    (* decimal.Decimal, by its str() *)
| VEnum (c : str) (member : val)       (* enum member of class [c], by its .value *)
| VOpaque (tag : N).                   (* unsupported object: function, datetime, ... *)

(** ** Nested induction principle: the members of a container are given by [In], the form in which
    [forallb_forall], [map_ext_in] and the like take them *)

Section val_ind_in.
  Variable P : val -> Prop.
  Hypothesis HNone : P VNone.
  Hypothesis HBool : forall b, P (VBool b).
  Hypothesis HInt : forall z, P (VInt z).
  Hypothesis HFlt : forall f, P (VFlt f).
  Hypothesis HStr : forall s, P (VStr s).
  Hypothesis HList : forall l, (forall x, In x l -> P x) -> P (VList l).
  Hypothesis HTuple : forall l, (forall x, In x l -> P x) -> P (VTuple l).
  Hypothesis HSet : forall l, (forall x, In x l -> P x) -> P (VSet l).
  Hypothesis HFrozen : forall l, (forall x, In x l -> P x) -> P (VFrozen l).
  Hypothesis HDict : forall m, (forall k x, In (k, x) m -> P k /\ P x) -> P (VDict m).
  Hypothesis HInst : forall c fs, (forall k x, In (k, x) fs -> P x) -> P (VInst c fs).
  Hypothesis HDec : forall s, P (VDec s).
  Hypothesis HEnum : forall c m, P m -> P (VEnum c m).
  Hypothesis HOpaque : forall t, P (VOpaque t).

  Lemma val_ind_in : forall v, P v.
  Proof.
    fix IH 1. intros v.
    destruct v as [ | b | z | f | s | l | l | l | l | m | c fs | s | c m | t];
      [ apply HNone | apply HBool | apply HInt | apply HFlt | apply HStr | apply HList | apply HTuple | apply HSet
      | apply HFrozen | apply HDict | apply HInst | apply HDec | apply HEnum, IH | apply HOpaque ].
    1-4: induction l as [|y ys IHl]; [intros x []|]; intros x [<-|Hin]; [apply IH | exact (IHl x Hin)].
    - induction m as [|[k' x'] r IHm]; [intros k x []|].
      intros k x [[= <- <-]|Hin]; [split; apply IH | exact (IHm k x Hin)].
    - induction fs as [|[k' x'] r IHm]; [intros k x []|].
      intros k x [[= <- <-]|Hin]; [apply IH | exact (IHm k x Hin)].
  Qed.
End val_ind_in.

(** what the proofs by [val_ind_in] need of [forallb] over the members *)
Lemma forallb_In {A} {p : A -> bool} {l x} : forallb p l = true -> In x l -> p x = true.
Proof. intros H. exact (proj1 (forallb_forall p l) H x). Qed.

Lemma forallb_map {A B} (f : A -> B) (p : B -> bool) l : forallb p (map f l) = forallb (fun x => p (f x)) l.
Proof. induction l; simpl; congruence. Qed.

Lemma forallb_impl {A} (p q : A -> bool) l :
  (forall x, In x l -> p x = true -> q x = true) -> forallb p l = true -> forallb q l = true.
Proof. intros H Hp. apply forallb_forall. intros x Hx. exact (H x Hx (forallb_In Hp Hx)). Qed.

Lemma filter_none {A} (p : A -> bool) (l : list A) : (forall x, In x l -> p x = false) -> filter p l = [].
Proof.
  induction l as [|x r IH]; intros H; simpl; [reflexivity|].
  rewrite (H x (or_introl eq_refl)). apply IH. intros y Hy. apply H. right; exact Hy.
Qed.

Definition flt_eqb (a b : flt) : bool :=
  match a, b with
  | F n d, F n' d' => Z.eqb n n' && Pos.eqb d d'
  | FNegZero, FNegZero => true
  | _, _ => false
  end.

Fixpoint list_eqb {A} (eqb : A -> A -> bool) (l1 l2 : list A) : bool :=
  match l1, l2 with
  | [], [] => true
  | x :: xs, y :: ys => eqb x y && list_eqb eqb xs ys
  | _, _ => false
  end.

Lemma list_eqb_eq {A} (eqb : A -> A -> bool) l :
  (forall x, In x l -> forall y, eqb x y = true -> x = y) ->
  forall l', list_eqb eqb l l' = true -> l = l'.
Proof.
  induction l as [|x l IH]; intros H [|y l'] E; try discriminate E; [reflexivity|].
  cbn [list_eqb] in E. apply andb_true_iff in E as [E1 E2]. f_equal.
  - apply H; [now left | exact E1].
  - apply IH; [|exact E2]. intros z Hz. apply H. now right.
Qed.

Fixpoint val_eqb (a b : val) {struct a} : bool :=
  match a, b with
  | VNone, VNone => true
  | VBool x, VBool y => Bool.eqb x y
  | VInt x, VInt y => Z.eqb x y
  | VFlt x, VFlt y => flt_eqb x y
  | VStr x, VStr y => String.eqb x y
  | VList x, VList y | VTuple x, VTuple y | VSet x, VSet y | VFrozen x, VFrozen y =>
      (fix go (l1 l2 : list val) {struct l1} : bool :=
         match l1, l2 with
         | [], [] => true
         | p :: ps, q :: qs => val_eqb p q && go ps qs
         | _, _ => false
         end) x y
  | VDict x, VDict y =>
      (fix go (l1 l2 : list (val * val)) {struct l1} : bool :=
         match l1, l2 with
         | [], [] => true
         | (k, p) :: ps, (k', q) :: qs => val_eqb k k' && val_eqb p q && go ps qs
         | _, _ => false
         end) x y
  | VInst c x, VInst c' y =>
      String.eqb c c' &&
      (fix go (l1 l2 : list (str * val)) {struct l1} : bool :=
         match l1, l2 with
         | [], [] => true
         | (k, p) :: ps, (k', q) :: qs => String.eqb k k' && val_eqb p q && go ps qs
         | _, _ => false
         end) x y
  | VDec x, VDec y => String.eqb x y
  | VEnum c x, VEnum c' y => String.eqb c c' && val_eqb x y
  | VOpaque x, VOpaque y => N.eqb x y
  | _, _ => false
  end.

Lemma flt_eqb_eq a b : flt_eqb a b = true <-> a = b.
Proof.
  destruct a, b; simpl; split; intros H; try discriminate; try reflexivity.
  - apply andb_true_iff in H as [H1 H2]. apply Z.eqb_eq in H1. apply Pos.eqb_eq in H2. congruence.
  - inversion H; subst. now rewrite Z.eqb_refl, Pos.eqb_refl.
Qed.

Lemma list_eqb_refl {A} (eqb : A -> A -> bool) l : (forall x, In x l -> eqb x x = true) -> list_eqb eqb l l = true.
Proof.
  induction l as [|x l IH]; intros H; [reflexivity|].
  cbn [list_eqb]. rewrite (H x), IH; [reflexivity | intros y Hy; apply H; now right | now left].
Qed.

(** the three member loops inside [val_eqb] are [list_eqb]; tuple, set and frozenset share the list's *)
Lemma val_eqb_list x y : val_eqb (VList x) (VList y) = list_eqb val_eqb x y.
Proof. cbn. revert y. induction x as [|a x IH]; intros [|b y]; try reflexivity. cbn [list_eqb]. now rewrite <- IH. Qed.

Lemma val_eqb_dict x y :
  val_eqb (VDict x) (VDict y) = list_eqb (fun p q => val_eqb (fst p) (fst q) && val_eqb (snd p) (snd q)) x y.
Proof.
  cbn. revert y. induction x as [|[k a] x IH]; intros [|[k' b] y]; try reflexivity. cbn [list_eqb fst snd].
  now rewrite <- IH.
Qed.

Lemma val_eqb_inst c x c' y :
  val_eqb (VInst c x) (VInst c' y)
  = String.eqb c c' && list_eqb (fun p q => String.eqb (fst p) (fst q) && val_eqb (snd p) (snd q)) x y.
Proof.
  cbn. f_equal. revert y. induction x as [|[k a] x IH]; intros [|[k' b] y]; try reflexivity. cbn [list_eqb fst snd].
  now rewrite <- IH.
Qed.

Lemma val_eqb_refl : forall v, val_eqb v v = true.
Proof.
  induction v using val_ind_in.
  6-9: change (val_eqb (VList l) (VList l) = true); rewrite val_eqb_list; now apply list_eqb_refl.
  - reflexivity.
  - now destruct b.
  - apply Z.eqb_refl.
  - apply flt_eqb_eq; reflexivity.
  - apply String.eqb_refl.
  - rewrite val_eqb_dict. apply list_eqb_refl. intros [k x] Hin. cbn [fst snd]. now destruct (H k x Hin) as [-> ->].
  - rewrite val_eqb_inst, String.eqb_refl. apply list_eqb_refl. intros [k x] Hin. cbn [fst snd].
    now rewrite String.eqb_refl, (H k x Hin).
  - apply String.eqb_refl.
  - cbn [val_eqb]. now rewrite String.eqb_refl, IHv.
  - apply N.eqb_refl.
Qed.

Lemma val_eqb_eq : forall a b, val_eqb a b = true -> a = b.
Proof.
  induction a using val_ind_in; intros w; destruct w; intros E; try discriminate E.
  6-9: change (val_eqb (VList l) (VList l0) = true) in E; rewrite val_eqb_list in E; f_equal;
       now apply (list_eqb_eq val_eqb).
  - reflexivity.
  - apply Bool.eqb_prop in E; congruence.
  - apply Z.eqb_eq in E; congruence.
  - apply flt_eqb_eq in E; congruence.
  - apply String.eqb_eq in E; congruence.
  - rewrite val_eqb_dict in E. f_equal. revert E. apply list_eqb_eq.
    intros [k x] Hin [k' y] [Ek Ex]%andb_true_iff. destruct (H k x Hin) as [Hk Hx]. f_equal; auto.
  - rewrite val_eqb_inst in E. apply andb_true_iff in E as [->%String.eqb_eq E]. f_equal. revert E. apply list_eqb_eq.
    intros [k x] Hin [k' y]. cbn [fst snd]. intros [<-%String.eqb_eq Ex]%andb_true_iff. f_equal.
    exact (H k x Hin y Ex).
  - apply String.eqb_eq in E; congruence.
  - cbn [val_eqb] in E. apply andb_true_iff in E as [->%String.eqb_eq E]. f_equal; auto.
  - apply N.eqb_eq in E; congruence.
Qed.

Lemma val_eqb_iff a b : val_eqb a b = true <-> a = b.
Proof. split; [apply val_eqb_eq | intros ->; apply val_eqb_refl]. Qed.

(** ** Observation equality: type-exact like [val_eqb], but dicts (and instance
    field lists) are compared up to order.  Used only to compare observations
    in the correspondence stage, never inside a model. *)

Fixpoint val_sim (a b : val) {struct a} : bool :=
  match a, b with
  | VList x, VList y | VTuple x, VTuple y | VSet x, VSet y | VFrozen x, VFrozen y =>
      (fix go (l1 l2 : list val) {struct l1} : bool :=
         match l1, l2 with
         | [], [] => true
         | p :: ps, q :: qs => val_sim p q && go ps qs
         | _, _ => false
         end) x y
  | VDict x, VDict y =>
      Nat.eqb (length x) (length y) &&
      (fix go (l1 : list (val * val)) {struct l1} : bool :=
         match l1 with
         | [] => true
         | kp :: ps =>
             (fix find (l2 : list (val * val)) : bool :=
                match l2 with
                | [] => false
                | kq :: qs => if val_eqb (fst kq) (fst kp) then val_sim (snd kp) (snd kq) else find qs
                end) y && go ps
         end) x
  | VInst c x, VInst c' y =>
      String.eqb c c' && Nat.eqb (length x) (length y) &&
      (fix go (l1 : list (str * val)) {struct l1} : bool :=
         match l1 with
         | [] => true
         | kp :: ps =>
             (fix find (l2 : list (str * val)) : bool :=
                match l2 with
                | [] => false
                | kq :: qs => if String.eqb (fst kq) (fst kp) then val_sim (snd kp) (snd kq) else find qs
                end) y && go ps
         end) x
  | VEnum c x, VEnum c' y => String.eqb c c' && val_sim x y
  | _, _ => val_eqb a b
  end.

(** JSON-representable: what the stdlib backend can emit and parse back.  *)
Fixpoint is_json (v : val) : bool :=
  match v with
  | VNone | VBool _ | VInt _ | VFlt _ | VStr _ => true
  | VList l => forallb is_json l
  | VDict m => forallb (fun kv => match fst kv with VStr _ => is_json (snd kv) | _ => false end) m
  | _ => false
  end.

(** What JSON makes of a value: tuples, sets and frozensets become lists, recursively; keys are left alone. *)
Fixpoint norm (v : val) : val :=
  match v with
  | VList l | VTuple l | VSet l | VFrozen l => VList (map norm l)
  | VDict m => VDict (map (fun kv => (fst kv, norm (snd kv))) m)
  | _ => v
  end.

(** used by generated case files *)
Definition sb (l : list N) : str :=
  fold_right (fun n acc => String (Ascii.ascii_of_N n) acc) EmptyString l.

(** index of failing cases — the only thing the correspondence stage prints *)
Fixpoint failing {A} (ok : A -> bool) (i : nat) (l : list A) : list nat :=
  match l with
  | [] => []
  | x :: r => if ok x then failing ok (S i) r else i :: failing ok (S i) r
  end.
