(** * Sched — interleaving semantics (DESIGN.md 3.5).  Model/Future.v is the one model built on it; Pool,
    Server and Config each define a [run] of the same shape for their own state.

    A system is a state type, a type of scheduling choices ("thread ids"; Future puts the expiry of its
    timeouts among them: [Go t | Fire t]) and a partial [step : St -> Tid -> option St] ([None] = the
    choice is not enabled).  A schedule is an ARBITRARY list of choices: [run] applies the enabled ones
    and skips the others, so [forall sched] ranges over all interleavings at the model's step granularity.
    (harness/sched's [Replay] policy has the same skipping semantics on the real code.) *)
From Coq Require Import List Arith.
Import ListNotations.

Section Sched.
  Context {St Tid : Type}.
  Variable step : St -> Tid -> option St.

  Fixpoint run (sched : list Tid) (s : St) : St :=
    match sched with
    | [] => s
    | t :: rest => match step s t with
                   | Some s' => run rest s'
                   | None => run rest s
                   end
    end.

  Fixpoint executed (sched : list Tid) (s : St) : list Tid :=
    match sched with
    | [] => []
    | t :: rest => match step s t with
                   | Some s' => t :: executed rest s'
                   | None => executed rest s
                   end
    end.

  (** for lock-step comparison with the implementation *)
  Fixpoint states (sched : list Tid) (s : St) : list St :=
    match sched with
    | [] => []
    | t :: rest => match step s t with
                   | Some s' => s' :: states rest s'
                   | None => states rest s
                   end
    end.

  (** an observation [o] of the state BEFORE every executed step (e.g. the label about to be taken) *)
  Fixpoint observed {O : Type} (o : St -> Tid -> O) (sched : list Tid) (s : St) : list O :=
    match sched with
    | [] => []
    | t :: rest => match step s t with
                   | Some s' => o s t :: observed o rest s'
                   | None => observed o rest s
                   end
    end.

  Lemma run_app : forall a b s, run (a ++ b) s = run b (run a s).
  Proof.
    induction a as [|t a IH]; intros b s; cbn [run app]; [reflexivity|].
    destruct (step s t); apply IH.
  Qed.

  Lemma run_cons_some : forall t rest s s', step s t = Some s' -> run (t :: rest) s = run rest s'.
  Proof. intros t rest s s' H; cbn [run]; rewrite H; reflexivity. Qed.

  Lemma run_cons_none : forall t rest s, step s t = None -> run (t :: rest) s = run rest s.
  Proof. intros t rest s H; cbn [run]; rewrite H; reflexivity. Qed.

  Lemma run_executed : forall sched s, run (executed sched s) s = run sched s.
  Proof.
    induction sched as [|t r IH]; intros s; cbn [run executed]; [reflexivity|].
    destruct (step s t) eqn:E; [cbn [run]; rewrite E|]; apply IH.
  Qed.

  Theorem run_invariant : forall (Inv : St -> Prop),
    (forall s t s', Inv s -> step s t = Some s' -> Inv s') ->
    forall sched s, Inv s -> Inv (run sched s).
  Proof.
    intros Inv Hstep; induction sched as [|t r IH]; intros s Hs; cbn [run]; [exact Hs|].
    destruct (step s t) eqn:E; [apply IH; eapply Hstep; eauto | apply IH; exact Hs].
  Qed.

  Corollary invariant_rule : forall (Inv : St -> Prop) init,
    Inv init -> (forall s t s', Inv s -> step s t = Some s' -> Inv s') ->
    forall sched, Inv (run sched init).
  Proof. intros Inv init H0 Hs sched; apply run_invariant; assumption. Qed.

  Theorem states_invariant : forall (Inv : St -> Prop),
    (forall s t s', Inv s -> step s t = Some s' -> Inv s') ->
    forall sched s, Inv s -> Forall Inv (states sched s).
  Proof.
    intros Inv Hstep; induction sched as [|t r IH]; intros s Hs; cbn [states]; [constructor|].
    destruct (step s t) eqn:E; [constructor; [|apply IH]; eapply Hstep; eauto | apply IH; exact Hs].
  Qed.

  (** for monotonicity / stability properties *)
  Theorem run_preorder_inv : forall (Inv : St -> Prop) (R : St -> St -> Prop),
    (forall s t s', Inv s -> step s t = Some s' -> Inv s') ->
    (forall s, R s s) -> (forall a b c, R a b -> R b c -> R a c) ->
    (forall s t s', Inv s -> step s t = Some s' -> R s s') ->
    forall sched s, Inv s -> R s (run sched s).
  Proof.
    intros Inv R Hi Hr Ht Hs; induction sched as [|t r IH]; intros s HI; cbn [run]; [apply Hr|].
    destruct (step s t) eqn:E; [eapply Ht; [eapply Hs; eauto | apply IH; eapply Hi; eauto] | apply IH; exact HI].
  Qed.

  Theorem run_preorder : forall (R : St -> St -> Prop),
    (forall s, R s s) -> (forall a b c, R a b -> R b c -> R a c) ->
    (forall s t s', step s t = Some s' -> R s s') ->
    forall sched s, R s (run sched s).
  Proof. intros R Hr Ht Hs sched s. apply (run_preorder_inv (fun _ => True)); eauto. Qed.

  Definition reachable (init s : St) : Prop := exists sched, s = run sched init.

  Lemma reachable_refl : forall init, reachable init init.
  Proof. intros init; exists []; reflexivity. Qed.

  Lemma reachable_run : forall init s sched, reachable init s -> reachable init (run sched s).
  Proof. intros init s sched [p ->]; exists (p ++ sched); symmetry; apply run_app. Qed.

  Lemma reachable_invariant : forall (Inv : St -> Prop) init,
    Inv init -> (forall s t s', Inv s -> step s t = Some s' -> Inv s') ->
    forall s, reachable init s -> Inv s.
  Proof. intros Inv init H0 Hs s [sched ->]; apply invariant_rule; assumption. Qed.
End Sched.

(** ** Timeouts.  A model with timed waits has a second partial function [fire] (expiry of the
    timeout the thread is blocked on).  In [stepf], with choices [(t, false)] (step) and [(t, true)]
    (fire), a timeout may expire at ANY moment.  Model/Future.v and Model/Pool.v write such a system
    directly in their own [step] (nothing instantiates [stepf]), and their safety theorems quantify
    over it.  In [run_q] a timeout expires only at quiescent moments (no thread of [threads] has an
    enabled step), as in the implementation runs; every such run is a run of [stepf] ([run_q_is_run]),
    so an invariant of [stepf] holds along it as well. *)
Section Fire.
  Context {St Tid : Type}.
  Variables (step fire : St -> Tid -> option St).

  Definition stepf (s : St) (c : Tid * bool) : option St :=
    if snd c then fire s (fst c) else step s (fst c).

  Definition quiescent (threads : list Tid) (s : St) : bool :=
    forallb (fun t => match step s t with Some _ => false | None => true end) threads.

  Definition stepq (threads : list Tid) (s : St) (c : Tid * bool) : option St :=
    if snd c then (if quiescent threads s then fire s (fst c) else None) else step s (fst c).

  Definition run_q (threads : list Tid) := run (stepq threads).

  Lemma run_q_is_run : forall threads sched s, exists sched', run_q threads sched s = run stepf sched' s.
  Proof.
    intros threads; induction sched as [|c r IH]; intros s.
    - exists []; reflexivity.
    - unfold run_q in *; cbn [run]. destruct (stepq threads s c) eqn:E.
      + destruct (IH s0) as [r' Hr']. exists (c :: r'). cbn [run].
        assert (stepf s c = Some s0) as ->.
        { unfold stepq, stepf in *. destruct (snd c); [destruct (quiescent threads s); [exact E|discriminate]|exact E]. }
        exact Hr'.
      + destruct (IH s) as [r' Hr']. exists r'. exact Hr'.
  Qed.

  Corollary run_q_invariant : forall (Inv : St -> Prop) threads,
    (forall s c s', Inv s -> stepf s c = Some s' -> Inv s') ->
    forall sched s, Inv s -> Inv (run_q threads sched s).
  Proof.
    intros Inv threads H sched s Hs. destruct (run_q_is_run threads sched s) as [r ->].
    apply run_invariant with (step := stepf); assumption.
  Qed.
End Fire.

(** the same rule for the models whose run is a [fold_left] over the schedule (Server, Config) *)
Lemma fold_left_invariant {St T} (f : St -> T -> St) (Inv : St -> Prop) :
  (forall s t, Inv s -> Inv (f s t)) -> forall sched s, Inv s -> Inv (fold_left f sched s).
Proof. intros H. induction sched as [|t r IH]; cbn [fold_left]; auto. Qed.

(** ** Thread-local state: total maps [nat -> A] updated pointwise *)
Definition upd {A} (f : nat -> A) (i : nat) (a : A) : nat -> A :=
  fun j => if Nat.eqb j i then a else f j.

Lemma upd_same : forall {A} (f : nat -> A) i a, upd f i a i = a.
Proof. intros; unfold upd; rewrite Nat.eqb_refl; reflexivity. Qed.

Lemma upd_other : forall {A} (f : nat -> A) i a j, j <> i -> upd f i a j = f j.
Proof. intros A f i a j H; unfold upd; destruct (Nat.eqb_spec j i); [contradiction|reflexivity]. Qed.

Global Opaque upd.
