(** * C01 examples — the hypotheses of the C01 theorems are met by concrete tables, and the closed forms
    of the theorems agree with the executable model on a grid of configurations (non-vacuity). *)
From JR Require Import Payload Client Dispatch EndToEnd EndToEndProofs.

Definition ex_body (c : cid) (p : val) : outcome := Return (VTuple [VInt 1; p; VDict [(VStr "k", VTuple [])]]).
Definition ex_sigs (c : cid) : signature := default_sig.
Definition ex_fresh (n : nat) : str := "uuid".
Definition ex_reg := mkReg [("méth od.x", 3%nat)] None.

Definition ex_lhs srvf sjc cv cjc carg a :=
  proxy_call ex_body ex_sigs ex_fresh f20 srvf (mkSrv ex_reg false sjc) None (mkClient (mkPcfg cv cjc) carg) "méth od.x" a 0%nat (mkHist [] []).
Definition ex_rhs srvf cv cjc carg a :=
  let c := mkClient (mkPcfg cv cjc) carg in
  let v := VTuple [VInt 1; entered a; VDict [(VStr "k", VTuple [])]] in
  (Ok (norm v), [EvCall 3%nat (entered a)],
   add_response (add_request (mkHist [] []) (request_value (req_v2 c) "méth od.x" a (ex_fresh 0%nat)))
                (Some (resp_obj (reply_form (req_v2 c) srvf) (VStr (ex_fresh 0%nat)) (norm v))),
   1%nat).
Definition ex_args := [Positional []; Positional [VInt 1; VList [VNone]]; Keyword [];
                       Keyword [(VStr "a", VFlt FNegZero); (VStr "", VDict [])]].
Definition ex_grid :=
  flat_map (fun srvf => flat_map (fun sjc => flat_map (fun cv => flat_map (fun cjc => flat_map (fun carg =>
    map (fun a => (srvf, sjc, cv, cjc, carg, a)) ex_args) [VNone; f10; f20]) [true; false]) [f10; f20]) [true; false]) [V1; V2].

(** 192 configurations: the closed form of C01_single_call is what the executable model computes *)
Example single_call_grid :
  forallb (fun '(srvf, sjc, cv, cjc, carg, a) =>
    match ex_lhs srvf sjc cv cjc carg a, ex_rhs srvf cv cjc carg a with
    | (Ok x, l1, h1, n1), (Ok y, l2, h2, n2) =>
        val_eqb x y && list_eqb event_eqb l1 l2 && list_eqb val_eqb (h_requests h1) (h_requests h2)
        && list_eqb opt_val_eqb (h_responses h1) (h_responses h2) && Nat.eqb n1 n2
    | _, _ => false
    end) ex_grid = true.
Proof. vm_compute. reflexivity. Qed.

(** the hypotheses of C01_single_call hold for this table *)
Example hypotheses_hold :
  lookup "méth od.x" (r_funcs ex_reg) = Some 3%nat /\
  forallb args_json ex_args = true /\
  forallb (fun a => call_binds (ex_sigs 3%nat) (entered a)) ex_args = true /\
  dumpable (VTuple [VInt 1; VList []; VDict [(VStr "k", VTuple [])]]) = true.
Proof. vm_compute. repeat split; reflexivity. Qed.

(** falsy results come back exactly *)
Example falsy_results :
  map (fun v => fst (fst (fst (proxy_call (fun _ _ => Return v) ex_sigs ex_fresh f20 V2 (mkSrv ex_reg false true) None
                                          (mkClient (mkPcfg f20 true) VNone) "méth od.x" (Positional []) 0%nat (mkHist [] [])))))
      [VNone; VBool false; VInt 0; VFlt (F 0 1); VFlt FNegZero; VStr ""; VList []; VDict []]
  = map (@Ok val) [VNone; VBool false; VInt 0; VFlt (F 0 1); VFlt FNegZero; VStr ""; VList []; VDict []].
Proof. vm_compute. reflexivity. Qed.

(** a batch of three jobs, one of them a notification: results of the two calls, in job order *)
Example batch_example :
  let '(r, log, h, n) :=
    multicall ex_body ex_sigs ex_fresh f20 V2 (mkSrv ex_reg false true) None (mkClient (mkPcfg f20 true) VNone) (mkPcfg f20 true)
              [mkJob "méth od.x" (Positional [VInt 1]) false; mkJob "méth od.x" (Keyword [(VStr "k", VNone)]) true;
               mkJob "méth od.x" (Positional []) false] 0%nat (mkHist [] []) in
  r = Some (Ok [Ok (VList [VInt 1; VList [VInt 1]; VDict [(VStr "k", VList [])]]);
                Ok (VList [VInt 1; VList []; VDict [(VStr "k", VList [])]])])
  /\ List.length log = 3%nat /\ List.length (h_requests h) = 1%nat /\ List.length (h_responses h) = 1%nat.
Proof. vm_compute. repeat split; reflexivity. Qed.
