(** Non-vacuity examples for property C13 (the hypotheses of the theorems of Props/C13.v are satisfied
    by concrete heaps, servers, requests and schedules), and a MUTANT model — not of the pinned code,
    which is correct here — that writes [version := 1.0] into the server's own Config instead of a copy,
    with witnesses that the theorems fail for it. *)
From JR Require Import Config.

(** ** A concrete server: Config(version=2.0) with non-empty tables at location 5, DEFAULT at 2 *)

Definition ex_h : heap :=
  heap_with_server [] [] (VFlt (F 2 1)) (VBool true) [(VStr "local.Point", VStr "class-Point")] [(VStr "hk", VStr "hv")].

Definition ex_table : list cdesc := [
  mkC default_sig (BReturn (VInt 42));                 (* 0 "ok" *)
  mkC default_sig (BRaise "ValueError" "boom")         (* 1 "fail" *)
].
Definition ex_hs : hserver := mkHS 5%nat (mkReg [("ok", 0%nat); ("fail", 1%nat)] None) false.
Definition ex_body := body_of ex_table.
Definition ex_sigs := sigs_of ex_table.

Example ex_heap_wf : heap_wf ex_h = true.                            Proof. reflexivity. Qed.
Example ex_server_ok : cfg_ok ex_h (hs_cfg ex_hs) = true.            Proof. reflexivity. Qed.
Example ex_default_ok : cfg_ok ex_h default_loc = true.              Proof. reflexivity. Qed.
Example ex_form : read_form ex_h (hs_cfg ex_hs) = Ok V2.             Proof. reflexivity. Qed.
Example ex_jsonclass : read_jsonclass ex_h (hs_cfg ex_hs) = Ok true. Proof. reflexivity. Qed.

(** a dispatcher built without a config argument: DEFAULT is the server's Config *)
Example ex_default_server_ok :
  let h := heap0 [(VStr "k", VStr "v")] [] in
  cfg_ok h default_loc = true /\ read_form h default_loc = Ok V2 /\ read_jsonclass h default_loc = Ok true.
Proof. repeat split. Qed.

Example ex_v1_server_ok :
  let h := heap_with_server [] [] (VFlt (F 1 1)) (VBool false) [] [] in
  cfg_ok h 5%nat = true /\ read_form h 5%nat = Ok V1 /\ read_jsonclass h 5%nat = Ok false.
Proof. repeat split. Qed.

Definition call10 : val := VDict [(VStr "method", VStr "ok"); (VStr "params", VList []); (VStr "id", VInt 1)].
Definition call20 : val :=
  VDict [(VStr "jsonrpc", VStr "2.0"); (VStr "method", VStr "ok"); (VStr "params", VList []); (VStr "id", VInt 2)].
Definition fail10 : val := VDict [(VStr "method", VStr "fail"); (VStr "params", VList []); (VStr "id", VInt 3)].
Definition invalid20 : val := VDict [(VStr "jsonrpc", VStr "2.0"); (VStr "id", VInt 4)].

Example ex_wellformed : wellformed_entry call10 = true /\ wellformed_entry call20 = true
                        /\ wellformed_entry fail10 = true /\ wellformed_entry invalid20 = false.
Proof. repeat split. Qed.

(** the compatibility branch runs: a 1.0-form call on the 2.0 server is answered in 1.0 form, through
    three allocations (locations 6, 7, 8) and one more write, to the copy (8) *)
Example ex_serve_call10 :
  exists h1, serve ex_body ex_sigs ex_h ex_hs None (PValue call10)
             = Ok (h1, Ok (ROne (VDict [(VStr "result", VInt 42); (VStr "id", VInt 1); (VStr "error", VNone)]),
                           [EvCall 0%nat (VList [])]))
             /\ map wloc (h_log h1) = [8%nat; 8%nat; 7%nat; 6%nat]
             /\ snapshot h1 5%nat = snapshot ex_h 5%nat /\ snapshot h1 default_loc = snapshot ex_h default_loc.
Proof. eexists. vm_compute. repeat split. Qed.

Example ex_serve_call20 :
  serve ex_body ex_sigs ex_h ex_hs None (PValue call20)
  = Ok (ex_h, Ok (ROne (VDict [(VStr "result", VInt 42); (VStr "id", VInt 2); (VStr "jsonrpc", VStr "2.0")]),
                  [EvCall 0%nat (VList [])])).
Proof. reflexivity. Qed.

(** a history mixing the forms, a batch and an unparsable body: the reply to the last body is the
    reply it gets without history *)
Definition ex_history : list parse_outcome :=
  [PValue call10; PValue (VList [fail10; call20; invalid20; call10]); PError; PValue call20; PEmpty].

Example ex_history_free :
  reply_after ex_body ex_sigs ex_h ex_hs None ex_history (PValue call20)
  = reply_after ex_body ex_sigs ex_h ex_hs None [] (PValue call20).
Proof. vm_compute. reflexivity. Qed.

Example ex_history_runs :
  exists h1 xs, serve_all ex_body ex_sigs ex_h ex_hs None ex_history = Ok (h1, xs)
                /\ length xs = 5%nat /\ length (h_log h1) = 12%nat
                /\ snapshot h1 5%nat = snapshot ex_h 5%nat.
Proof. eexists _, _. vm_compute. repeat split. Qed.

Definition ex_ops : list op :=
  [SetVersion (VFlt (F 1 1)); ClassesAdd (VStr "Q") (VStr "class-Q"); ClassesDel (VStr "local.Point");
   HandlersSet (VStr "hk") (VInt 0); HandlersDel (VStr "hk"); SetUseJsonclass (VBool false); SetUserAgent VNone;
   SetContentType (VStr "application/json"); SetSerializeMethod (VStr "_s"); SetIgnoreAttr (VStr "_i")].

Example ex_copy_then_ops :
  exists h1 c' h2 h3,
    config_copy ex_h 5%nat = Ok (h1, c') /\ c' = 8%nat
    /\ apply_ops h1 c' ex_ops = Ok h2 /\ snap_eqb (snapshot h2 5%nat) (snapshot ex_h 5%nat) = true
    /\ snap_eqb (snapshot h2 c') (snapshot h1 c') = false                    (* the operations do change the copy *)
    /\ apply_ops h1 5%nat ex_ops = Ok h3 /\ snap_eqb (snapshot h3 c') (snapshot h1 c') = true
    /\ snap_eqb (snapshot h3 5%nat) (snapshot ex_h 5%nat) = false.
Proof.
  eexists _, _, _, _.
  (* conjunct by conjunct, so that each is evaluated with its witnesses known: vm_compute on a goal with
     open existentials is slow, and unifying them with the normal forms afterwards is slower still *)
  repeat (apply conj; [vm_compute; reflexivity|]). vm_compute; reflexivity.
Qed.

(** ** Concurrent serving: three threads, two schedules that let every thread finish *)

Definition treq_of (e : val) : treq :=
  match e with
  | VDict m => mkTReq None m (match dget m "method" with Some (VStr s) => s | _ => "" end) (params_of e)
  | _ => mkTReq None [] "" VNone
  end.

Definition ex_reqs : list treq := [treq_of call10; treq_of call20; treq_of fail10].

Definition pcs (s : cstate) : list pc := map t_pc (cs_threads s).

Definition done_form (p : pc) : option form :=
  match p with PDone (Some o, _) => reply_form o | _ => None end.

Definition ex_sched_interleaved : list nat :=
  [0; 2; 1; 0; 2; 2; 0; 1; 1; 0; 2; 0; 2; 1; 7; 0; 2; 1; 0; 2]%nat.
Definition ex_sched_blocks : list nat :=
  [2; 2; 2; 2; 2; 1; 1; 1; 1; 0; 0; 0; 0; 0; 0; 0]%nat.

Example ex_concurrent_interleaved :
  let s := run_sched ex_body ex_sigs ex_hs ex_sched_interleaved (mkCS ex_h (init_threads ex_reqs)) in
  map done_form (pcs s) = [Some V1; Some V2; Some V1]
  /\ snap_eqb (snapshot (cs_heap s) 5%nat) (snapshot ex_h 5%nat) = true
  /\ length (h_log (cs_heap s)) = 8%nat.
Proof. vm_compute. repeat split. Qed.

Example ex_concurrent_blocks :
  let s := run_sched ex_body ex_sigs ex_hs ex_sched_blocks (mkCS ex_h (init_threads ex_reqs)) in
  map done_form (pcs s) = [Some V1; Some V2; Some V1]
  /\ pcs s = pcs (run_sched ex_body ex_sigs ex_hs ex_sched_interleaved (mkCS ex_h (init_threads ex_reqs))).
Proof. vm_compute. repeat split. Qed.

(** ** The mutant: [config = self.json_config; config.version = 1.0] — no copy *)

Definition request_config_mut (h : heap) (srv : loc) (m : list (val * val)) : res (heap * loc) :=
  do f <- read_form h srv;
  if negb (dhas m "jsonrpc") && form_eqb f V2
  then do h1 <- apply_op h srv (SetVersion one_point_zero); Ok (h1, srv)
  else Ok (h, srv).

Definition single_dispatch_mut (h : heap) (hs : hserver) (dm : option cid)
           (m : list (val * val)) (method : str) (params : val) : res (heap * (option val * list event)) :=
  do hc <- request_config_mut h (hs_cfg hs) m;
  let '(h1, c) := hc in
  do f <- read_form h1 c;
  do jc <- read_jsonclass h1 c;
  Ok (h1, single_dispatch_with ex_body ex_sigs f (mkSrv (hs_reg hs) (hs_pool hs) jc) dm m method params).

Definition answer_entry_mut (h : heap) (hs : hserver) (dm : option cid) (e : val)
  : res (heap * (option val * list event)) :=
  do f <- read_form h (hs_cfg hs);
  match validate_request f e with
  | Invalid ft => Ok (h, (Some (fault_dump ft), []))
  | Valid m method params => single_dispatch_mut h hs dm m method params
  end.

Definition answer_form (r : res (heap * (option val * list event))) : option form :=
  match r with Ok (_, (Some o, _)) => reply_form o | _ => None end.

(** C13_reply_function fails for the mutant: the 2.0-form call is answered in 2.0 form on the initial
    heap, and in 1.0 form after a 1.0-form call has been served *)
Example nocopy_history_dependent_refuted :
  exists h hs e1 e2,
    cfg_ok h (hs_cfg hs) = true /\ read_form h (hs_cfg hs) = Ok V2
    /\ wellformed_entry e2 = true
    /\ answer_form (answer_entry_mut h hs None e2) = Some V2
    /\ answer_form (do a <- answer_entry_mut h hs None e1; answer_entry_mut (fst a) hs None e2) = Some V1.
Proof. exists ex_h, ex_hs, call10, call20. vm_compute. repeat split. Qed.

(** C13_config_unchanged fails for the mutant: the write goes to the server's own location *)
Example nocopy_writes_server_config_refuted :
  exists h hs e h1 out,
    cfg_ok h (hs_cfg hs) = true /\ answer_entry_mut h hs None e = Ok (h1, out)
    /\ map wloc (h_log h1) = [hs_cfg hs]
    /\ snap_eqb (snapshot h1 (hs_cfg hs)) (snapshot h (hs_cfg hs)) = false.
Proof. exists ex_h, ex_hs, call10. eexists _, _. vm_compute. repeat split. Qed.

(** a copy that shares the tables (new_config.classes = self.classes): C13_copy_independent fails *)
Definition config_copy_shared (h : heap) (c : loc) : res (heap * loc) :=
  do r <- get_cfg h c;
  let '(h1, c') := alloc_cfg h r in
  Ok (h1, c').

Example shared_copy_refuted :
  exists h c h1 c' h2,
    cfg_ok h c = true /\ config_copy_shared h c = Ok (h1, c')
    /\ apply_ops h1 c' [ClassesAdd (VStr "Q") (VStr "class-Q")] = Ok h2
    /\ snap_eqb (snapshot h2 c) (snapshot h c) = false.
Proof.
  exists ex_h, 5%nat. eexists _, _, _.
  repeat (apply conj; [vm_compute; reflexivity|]). vm_compute; reflexivity.
Qed.
