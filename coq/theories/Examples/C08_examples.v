(** Non-vacuity examples for C08. *)
From JR Require Import JsonClass.

Definition c08_env : pyenv :=
  mkEnv [("canary.Cls", mkClass KDict "canary" "Cls" [] [] [] [] "" None [])] ["canary"].

(** a valid name is imported and constructed: the event log is not always empty *)
Example ex_valid_events :
  lres_events (jc_load_m fixed c08_env [] (VDict [(VStr "__jsonclass__", VList [VStr "canary.Cls"; VList []])]))
  = [EvImport "canary"; EvConstruct "canary.Cls"].
Proof. reflexivity. Qed.

(** hypotheses of C08_invalid_name_rejected: a name with a space that would otherwise reach the canary *)
Definition bad : list (val * val) := [(VStr "__jsonclass__", VList [VStr "can ary.Cls"; VList []])].
Example ex_shape : descriptor_shape (VList [VStr "can ary.Cls"; VList []]) = Some (VStr "can ary.Cls", VList []).
Proof. reflexivity. Qed.
Example ex_name_bad : name_ok (VStr "can ary.Cls") = false. Proof. reflexivity. Qed.
Example ex_name_empty : name_ok (VStr "") = false. Proof. reflexivity. Qed.
Example ex_name_nonascii : name_ok (VStr (sb [99; 195; 169]%N)) = false. Proof. reflexivity. Qed.
Example ex_name_good : name_ok (VStr "canary.Cls") = true. Proof. reflexivity. Qed.
Example ex_rejected : jc_load_m fixed c08_env [] (VDict bad) = (Raise ETranslation, VDict bad, []).
Proof. reflexivity. Qed.

Example ex_malformed_number :
  lres_val (jc_load_m fixed c08_env [] (VDict [(VStr "__jsonclass__", VInt 5)])) = Raise EType.
Proof. reflexivity. Qed.
Example ex_malformed_short :
  jc_load_m fixed c08_env [] (VDict [(VStr "__jsonclass__", VList [VStr "canary.Cls"])])
  = (Raise EIndex, VDict [(VStr "__jsonclass__", VList [VStr "canary.Cls"])], []).
Proof. reflexivity. Qed.

(** a frame stack satisfying frame_ok: the rejected descriptor sits behind a loadable one, two levels down *)
Definition good : val := VDict [(VStr "__jsonclass__", VList [VStr "canary.Cls"; VList []])].
Definition stack : list frame := [FDict [(VStr "a", VInt 1)] (VStr "params") []; FList [good] [VInt 2]].
Example ex_frames_ok : forallb (frame_ok fixed c08_env []) stack = true. Proof. reflexivity. Qed.
Example ex_at_depth :
  lres_val (jc_load_m fixed c08_env [] (plugs stack (VDict bad))) = Raise ETranslation /\
  lres_events (jc_load_m fixed c08_env [] (plugs stack (VDict bad))) = [EvImport "canary"; EvConstruct "canary.Cls"].
Proof. split; reflexivity. Qed.

(** gate off: the same payload is returned as it is *)
Example ex_inert :
  rpc_load fixed c08_env (mkCfg false "_serialize" "_ignore" [] []) (VDict bad) = (Ok (VDict bad), VDict bad, []).
Proof. reflexivity. Qed.
