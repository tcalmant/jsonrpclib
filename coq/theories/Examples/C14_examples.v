(** Non-vacuity examples for C14, satisfying instances of the section hypotheses, and the
    refutation witness of the pre-fix id rule (finding F8). *)
From JR Require Import Payload PayloadProofs.
From Coq Require Import Ascii.

(** ** An id supply that is injective and never empty *)
Fixpoint unary (n : nat) : string := match n with O => EmptyString | S k => String "a"%char (unary k) end.
Definition fr (n : nat) : str := String "i"%char (unary n).

Lemma unary_inj a : forall b, unary a = unary b -> a = b.
Proof. induction a; destruct b; simpl; intros H; try discriminate; auto. inversion H. f_equal; auto. Qed.
Example fr_inj : forall a b, fr a = fr b -> a = b.
Proof. unfold fr. intros a b H. inversion H. now apply unary_inj. Qed.
Example fr_nonempty : forall n, fr n <> "".
Proof. unfold fr. discriminate. Qed.

(** ** A trivial JSON codec satisfying the round-trip hypothesis of C14_loads_dumps:
    the "text" of a value is the normalised value itself; [None] is the empty text *)
Definition t_enc (v : val) : res (option val) := if json_ok v then Ok (Some (norm v)) else Raise EType.
Definition t_dec (t : option val) : res val := match t with Some v => Ok v | None => Raise EValue end.
Definition t_empty (t : option val) : bool := match t with None => true | Some _ => false end.

Example t_codec_ok : forall v, json_ok v = true ->
  exists t, t_enc v = Ok t /\ t_empty t = false /\ t_dec t = Ok (norm v).
Proof. intros v H. exists (Some (norm v)). unfold t_enc. rewrite H. auto. Qed.

Definition idj (v : val) : res val := Ok v.        (* class translation that leaves plain data alone *)
Definition cfg2 := mkPcfg (VFlt (F 2 1)) true.
Definition cfg1 := mkPcfg (VFlt (F 1 1)) false.
Definition v2 := VFlt (F 2 1).

(** ** The hypotheses of the theorems are met by concrete calls *)
Example ex_request_v2_hyps :
  listed_version VNone = true /\ listed_config_version (pc_version cfg2) = true /\ version_number cfg2 VNone = 2 /\
  is_string (VStr "add") = true /\ truthy VNone = false /\
  valid_params false (PVal (default_params VNone (VTuple [VInt 1; VInt 2]))) = true /\
  translated idj cfg2 (default_params VNone (VTuple [VInt 1; VInt 2])) = Ok (VTuple [VInt 1; VInt 2]).
Proof. repeat split; reflexivity. Qed.

Example ex_request_v2 :
  dump idj fr v2 cfg2 (PVal (VTuple [VInt 1; VInt 2])) (VStr "add") (VInt 0) VNone VNone VNone 5%nat
  = Ok (VDict [(VStr "id", VInt 0); (VStr "method", VStr "add"); (VStr "params", VTuple [VInt 1; VInt 2]);
               (VStr "jsonrpc", VStr "2.0")], 5%nat).
Proof. reflexivity. Qed.

Example ex_request_v2_no_params_generated_id :
  dump idj fr v2 cfg2 (PVal VNone) (VStr "ping") VNone (VStr "2.0") VNone VNone 5%nat
  = Ok (VDict [(VStr "id", VStr (fr 5)); (VStr "method", VStr "ping"); (VStr "jsonrpc", VStr "2.0")], 6%nat).
Proof. reflexivity. Qed.

Example ex_request_v1 :
  dump idj fr v2 cfg2 (PVal (VDict [])) (VStr "ping") (VStr "abc") (VStr "1.0") VNone VNone 0%nat
  = Ok (VDict [(VStr "id", VStr "abc"); (VStr "method", VStr "ping"); (VStr "params", VList [])], 0%nat).
Proof. reflexivity. Qed.

Example ex_notification_v2 :
  dump idj fr v2 cfg2 (PVal (VList [VInt 1])) (VStr "log") (VInt 7) VNone VNone (VBool true) 0%nat
  = Ok (VDict [(VStr "method", VStr "log"); (VStr "params", VList [VInt 1]); (VStr "jsonrpc", VStr "2.0")], 0%nat).
Proof. reflexivity. Qed.

Example ex_notification_v1 :
  dump idj fr v2 cfg1 (PVal (VList [VInt 1])) (VStr "log") (VInt 7) VNone VNone (VBool true) 0%nat
  = Ok (VDict [(VStr "id", VNone); (VStr "method", VStr "log"); (VStr "params", VList [VInt 1])], 0%nat).
Proof. reflexivity. Qed.

Example ex_supplied_ids :
  supplied_id (VInt 0) = true /\ supplied_id (VFlt (F 0 1)) = true /\ supplied_id (VFlt FNegZero) = true /\
  supplied_id (VStr "a") = true /\ supplied_id (VInt (-5)) = true /\
  needs_fresh_id VNone = true /\ needs_fresh_id (VStr "") = true /\ needs_fresh_id (VBool false) = true /\
  needs_fresh_id (VList []) = true /\ needs_fresh_id (VInt 0) = false.
Proof. repeat split; reflexivity. Qed.

Example ex_response_v2 :
  dump idj fr v2 cfg2 (PVal (VInt 0)) VNone (VInt 0) VNone (VBool true) VNone 0%nat
  = Ok (VDict [(VStr "result", VInt 0); (VStr "id", VInt 0); (VStr "jsonrpc", VStr "2.0")], 0%nat).
Proof. reflexivity. Qed.

Example ex_response_requires_id :
  dump idj fr v2 cfg2 (PVal (VInt 1)) VNone VNone VNone (VBool true) VNone 0%nat = Raise EValue.
Proof. reflexivity. Qed.

Example ex_error_v1_with_data :
  dump idj fr v2 cfg2 (PFault (VInt (-32601)) (VStr "nope") (VInt 0)) VNone (VStr "r1") (VFlt (F 1 1)) (VBool true) VNone 0%nat
  = Ok (VDict [(VStr "result", VNone); (VStr "id", VStr "r1");
               (VStr "error", VDict [(VStr "code", VInt (-32601)); (VStr "message", VStr "nope"); (VStr "data", VInt 0)])], 0%nat).
Proof. reflexivity. Qed.

Example ex_rejections :
  dump idj fr v2 cfg2 (PVal (VInt 5)) (VStr "m") VNone VNone VNone VNone 0%nat = Raise EType /\
  dump idj fr v2 cfg2 (PVal (VList [])) (VInt 5) VNone VNone VNone VNone 0%nat = Raise EValue /\
  invalid_combination (VInt 5) (VStr "m") VNone VNone = true /\
  invalid_combination (VList []) VNone VNone VNone = true /\
  invalid_combination (VInt 1) VNone VNone (VBool true) = true.
Proof. repeat split; reflexivity. Qed.

Example ex_fault_dump_falsy_forced_id_ignored :
  fst (fault_dump v2 (mkFault (VInt 1) (VStr "x") (VInt 9) cfg2 VNone) (VInt 0) VNone)
  = Ok (VDict [(VStr "id", VInt 9); (VStr "jsonrpc", VStr "2.0");
               (VStr "error", VDict [(VStr "code", VInt 1); (VStr "message", VStr "x")])]).
Proof. reflexivity. Qed.

(** the sequence theorem instantiated: three calls, two generated ids, distinct *)
Definition three_calls : list call :=
  [mkCall cfg2 (PVal (VList [])) (VStr "a") VNone VNone VNone VNone;
   mkCall cfg2 (PVal (VList [])) (VStr "b") (VInt 0) VNone VNone VNone;
   mkCall cfg1 (PVal (VList [])) (VStr "c") (VStr "") VNone VNone VNone].
Example ex_three_calls : fst (run_calls fr idj v2 three_calls 0) = [VStr (fr 0); VStr (fr 1)].
Proof. reflexivity. Qed.
Example ex_three_calls_distinct : NoDup (filter is_string (fst (run_calls fr idj v2 three_calls 0))).
Proof. apply (run_calls_ids fr idj fr_inj v2 three_calls 0%nat). Qed.

(** loads(dumps(x)) with the instance codec *)
Example ex_loads_dumps :
  exists t, dumps idj fr t_enc v2 cfg2 (PVal (VTuple [VInt 1])) (VStr "m") VNone (VInt 3) VNone VNone 0%nat = Ok (t, 0%nat)
            /\ loads t_empty t_dec idj cfg2 t =
               Ok (VDict [(VStr "id", VInt 3); (VStr "method", VStr "m"); (VStr "params", VList [VInt 1]); (VStr "jsonrpc", VStr "2.0")]).
Proof.
  destruct (loads_dumps fr idj t_empty t_enc t_dec idj t_codec_ok v2 cfg2 cfg2 (PVal (VTuple [VInt 1])) (VStr "m") VNone (VInt 3) VNone VNone 0%nat
              _ _ eq_refl eq_refl (or_intror eq_refl)) as [t [H1 H2]].
  exists t. split; assumption.
Qed.

(** ** The pinned (pre-fix) id rule, jsonrpc.py:1127-1129 of the snapshot:  [if not self.id: self.id = str(uuid.uuid4())] *)
Definition needs_fresh_id_v0 (i : val) : bool := negb (truthy i).

Definition payload_request_v0 (fresh : nat -> str) (p : payload) (method params : val) (n : nat) : res (val * payload * nat) :=
  if negb (is_string method) then Raise EValue
  else
    let '(p, n) := if needs_fresh_id_v0 (p_id p)
                   then (mkPayload (VStr (fresh n)) (p_version p), S n)
                   else (p, n) in
    let request := [(VStr "id", p_id p); (VStr "method", method)] in
    let request := if truthy params || lt11 (p_version p)
                   then dset request (VStr "params") (params_or_empty params)
                   else request in
    do request <- (if ge2 (p_version p)
                   then do s <- float_str (p_version p); Ok (dset request (VStr "jsonrpc") (VStr s))
                   else Ok request);
    Ok (VDict request, p, n).

(** F8: on the pinned tree a supplied number id is not used verbatim *)
Example F8_refuted_zero :
  exists i d p n, supplied_id i = true /\
    payload_request_v0 fr (mkPayload i (2, 1%positive)) (VStr "m") (VList []) 0%nat = Ok (VDict d, p, n) /\
    dget d "id" <> Some i.
Proof. exists (VInt 0). do 3 eexists. split; [reflexivity|]. split; [reflexivity|]. discriminate. Qed.

Example F8_refuted_float_zero :
  exists i d p n, supplied_id i = true /\
    payload_request_v0 fr (mkPayload i (1, 1%positive)) (VStr "m") (VList []) 0%nat = Ok (VDict d, p, n) /\
    dget d "id" <> Some i.
Proof. exists (VFlt (F 0 1)). do 3 eexists. split; [reflexivity|]. split; [reflexivity|]. discriminate. Qed.

(** ... and the repaired rule keeps it *)
Example F8_fixed_zero :
  payload_request fr (mkPayload (VInt 0) (2, 1%positive)) (VStr "m") (VList []) 0%nat
  = Ok (VDict [(VStr "id", VInt 0); (VStr "method", VStr "m"); (VStr "jsonrpc", VStr "2.0")], mkPayload (VInt 0) (2, 1%positive), 0%nat).
Proof. reflexivity. Qed.
