(** Non-vacuity examples for C12 and the refutation witness of the pre-fix server_close (finding F7). *)
From JR Require Import Server.
Local Open Scope nat_scope.

(** ** handler level: a concrete dispatcher, five connections (good, failing dispatch, bad path, no length,
    short Content-Length) *)
Definition ex_dispatch (d : string) : dres * list string :=
  if String.eqb d "ping" then (DReply "pong", ["tok-ping"])
  else if String.eqb d "boom" then (DFail, ["tok-boom"])
  else (DReply "parse-error", []).

Definition ex_reqs : list request :=
  [mkReq true (Some 4) "ping"; mkReq true (Some 4) "boom"; mkReq false (Some 4) "ping"; mkReq true None "ping";
   mkReq true (Some 2) "ping"].

Definition ex_final := run ex_dispatch "F500" "P404" 2 ([0;1;2;0;3;4;1;1;2;0;0;3;4;4;1;0;3] ++ concat (repeat [4;3;2;1;0] 12))%list (init ex_reqs).

Example ex_all_done : map (@c_pc string) ex_final = [HDone; HDone; HDone; HDone; HDone].
Proof. vm_compute. reflexivity. Qed.

Example ex_replies : map (@c_wfile string) ex_final =
  [Some (200, "pong"); Some (500, "F500"); Some (404, "P404"); Some (500, "F500"); Some (200, "parse-error")].
Proof. vm_compute. reflexivity. Qed.

Example ex_effects : map (@c_effects string) ex_final = [["tok-ping"]; ["tok-boom"]; []; []; []].
Proof. vm_compute. reflexivity. Qed.

(** the pool gate is real: with one worker a second connection cannot be entered while the first is active *)
Example ex_gate : step ex_dispatch "F500" "P404" 1 (run ex_dispatch "F500" "P404" 1 [0] (init ex_reqs)) 1 = None.
Proof. vm_compute. reflexivity. Qed.

(** ** lifecycle: legal histories exist, and the hypotheses of the theorems are met *)
Example legal_close_alone : legal Pooled [Construct; ServerClose] = true.          Proof. reflexivity. Qed.
Example legal_stop_sequence : legal Plain [Construct; ServeInThread; Request true; Shutdown; ServerClose] = true.
Proof. reflexivity. Qed.
Example legal_reserve : legal Pooled [Construct; ServeInThread; Shutdown; ServeInThread; ServerClose] = true.
Proof. reflexivity. Qed.
Example illegal_shutdown_not_serving : legal Plain [Construct; Shutdown] = false.  Proof. reflexivity. Qed.
Example illegal_plain_close_serving : legal Plain [Construct; ServeInThread; ServerClose] = false.
Proof. reflexivity. Qed.

(** repaired code: close without ever serving returns, socket closed, pool stopped *)
Example close_alone_returns : lobs Pooled [Construct; ServerClose] = (2, false, Some true, false).
Proof. vm_compute. reflexivity. Qed.

(** a plain server's shutdown() waits for the handler running inline; all five calls return *)
Example plain_inflight : lobs Plain [Construct; ServeInThread; Request true; Shutdown; ServerClose] = (5, false, Some true, false).
Proof. vm_compute. reflexivity. Qed.

(** while serving, the loop runs: the fourth component of the observation is not constantly false *)
Example serving_observed : lobs Pooled [Construct; ServeInThread; Request false] = (3, true, None, true).
Proof. vm_compute. reflexivity. Qed.

(** a reachable state in which ServerClose has returned (hypothesis of C12_closed_state) *)
Example closed_reachable :
  close_returned (lrun Pooled [AMain; AMain; AMain; AMain; AMain; AMain; ALoop; AMain; AMain; ALoop; AHandler; AWorker; AMain; AMain; AMain]
                       (linit [Construct; ServeInThread; Request true; ServerClose])) = true.
Proof. vm_compute. reflexivity. Qed.

(** ** F7 — the pinned server_close: [SimpleJSONRPCServer.shutdown(self)] unconditionally *)
Definition lstep_v0 := lstep_gen (fun _ => true).
Definition lrun_v0 := lrun_gen (fun _ => true).

(** the history [Construct; ServerClose] is legal, and after the caller's two steps it is inside
    shutdown() waiting for an event nobody will ever set: no thread can move, the call has not returned *)
Example F7_refuted :
  exists k h sched, legal k h = true /\
    let s := lrun_v0 k sched (linit h) in
    main_finished s = false /\ forall a, lstep_v0 k s a = None.
Proof.
  exists Pooled, [Construct; ServerClose], [AMain; AMain]. split; [reflexivity|].
  split; [reflexivity|]. intros a; destruct a; reflexivity.
Qed.

(** the same through the executor the correspondence stage uses: only Construct returns, the socket stays open *)
Example F7_refuted_obs : lobs_gen (fun _ => true) Pooled [Construct; ServerClose] = (1, true, None, false).
Proof. vm_compute. reflexivity. Qed.

(** the pinned code is fine once the loop has run: the defect is specific to never having served *)
Example F7_prefix_ok_after_serving :
  lobs_gen (fun _ => true) Pooled [Construct; ServeInThread; Shutdown; ServerClose] = (4, false, Some true, false).
Proof. vm_compute. reflexivity. Qed.
