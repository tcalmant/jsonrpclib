(** Non-vacuity examples for property C19, and variants of the code that break it. *)
From JR Require Import Transport.

Definition t (n : Z) : val := VInt n.
Definition H := "HOST".
Definition P := "/rpc/x".

(** a concrete history with every kind of outcome (the same runs are made against the real
    proxy by the correspondence stage) *)
Example run_mixed :
  outcomes H P [FBodiless 204; FStatusLen 503; FCloseNoReply; FCloseNoReply; FEmpty200; FTruncated; FRefuse]
           [t 0; t 1; t 2; t 3; t 4; t 5; t 6; t 7]
  = [Raise (ETransport "HOST/rpc/x" 204);      (* bodiless status *)
     Raise ENotReady;                          (* its response is still attached: one failing call; the 503 is never read *)
     Raise ERemoteDisconnected;                (* closed twice: the retry is used up *)
     Raise EType;                              (* empty 200: None["result"] *)
     Raise EValue;                             (* truncated body *)
     Raise EConnRefused;                       (* stale connection, retry refused *)
     Ok (t 6); Ok (t 7)].
Proof. vm_compute. reflexivity. Qed.

(** one transparent retry: a request can be answered on the second attempt *)
Example run_retry :
  outcomes H P [FHealthyClose; FHealthy; FReset; FHealthy] [t 0; t 1; t 2] = [Ok (t 0); Ok (t 1); Ok (t 2)].
Proof. vm_compute. reflexivity. Qed.

(** hypotheses of C19_pending_cleared are satisfiable by a reachable state *)
Definition st_pending := fst (run_calls H P (init [FBodiless 204]) [t 0]).
Example pending_state_reachable : inv st_pending = true /\ idle st_pending = false.
Proof. vm_compute. auto. Qed.

(** hypotheses of C19_transport_error_fields / C19_reply_is_own *)
Example exchange_non200 :
  exchange (last_attempt_state H P (init [FCloseNoReply; FStatusLen 404]) (t 0)) (t 0)
  = Ok (mkResp 404 true BErrText).
Proof. vm_compute. reflexivity. Qed.

Example transport_error_after_retry :
  snd (proxy_call H P (init [FCloseNoReply; FStatusLen 404]) (t 0)) = Raise (ETransport "HOST/rpc/x" 404).
Proof. vm_compute. reflexivity. Qed.

(** hypothesis of C19_recovery_bound; the bound 1 is reached (tight) *)
Example recovery_hypothesis :
  forallb is_healthy (t_script st_pending) = true.
Proof. vm_compute. reflexivity. Qed.

Example recovery_bound_tight :
  failures (snd (run_calls H P st_pending [t 1; t 2; t 3])) = 1%nat.
Proof. vm_compute. reflexivity. Qed.

(** The invariant is what keeps foreign results out: from a state that violates it (an unread
    reply to an earlier request sits in the socket and no response is attached) the model DOES
    return the stale reply.  So C19_own_or_exception is not true by construction of the model. *)
Definition st_stale : state :=
  mkState (Some (mkConn (Some (mkSock PeerOpen [IResponse (mkResp 200 true (BReply (t 41)))])) false)) [].

Example stale_state_breaks_inv : inv st_stale = false.
Proof. reflexivity. Qed.

Example stale_state_returns_foreign :
  snd (proxy_call H P st_stale (t 42)) = Ok (t 41).
Proof. vm_compute. reflexivity. Qed.

(** ** Variant 1: single_request WITHOUT [self.close()] in its except path
    (mutants/C19_no_close_on_error.patch).  The connection with the unfinished response stays
    cached for ever: the recovery bound is refuted. *)

Definition single_request_noclose (host handler : str) (st : state) (tok : val) : state * res body :=
  let c := make_connection st in
  match h_request c (t_script st) tok with
  | (c1, script', Raise e) => (mkState (Some c1) script', Raise e)
  | (c1, script', Ok _) =>
      match h_getresponse c1 with
      | (c2, Raise e) => (mkState (Some c2) script', Raise e)
      | (c2, Ok r) =>
          if r_status r =? 200
          then (mkState (Some (h_read c2 r)) script', Ok (r_body r))
          else
            let c3 := if r_has_len r then h_read c2 r else c2 in
            (mkState (Some c3) script', Raise (ETransport (url_of host handler) (r_status r)))
      end
  end.

Definition proxy_call_noclose (host handler : str) (st : state) (tok : val) : state * res val :=
  let tr :=
    match single_request_noclose host handler st tok with
    | (st1, Raise e) => if retryable e then single_request_noclose host handler st1 tok else (st1, Raise e)
    | r => r
    end in
  match tr with
  | (st1, Raise e) => (st1, Raise e)
  | (st1, Ok b) => (st1, do r <- run_request b; proxy_result r)
  end.

Fixpoint run_calls_noclose (host handler : str) (st : state) (toks : list val) : state * list (res val) :=
  match toks with
  | [] => (st, [])
  | tok :: rest =>
      let '(st1, o) := proxy_call_noclose host handler st tok in
      let '(st2, os) := run_calls_noclose host handler st1 rest in
      (st2, o :: os)
  end.

Theorem noclose_recovery_refuted :
  exists script toks1 toks2,
    let st := fst (run_calls_noclose H P (init script) toks1) in
    forallb is_healthy (t_script st) = true /\
    (failures (snd (run_calls_noclose H P st toks2)) > 1)%nat.
Proof.
  exists [FBodiless 204], [t 0], [t 1; t 2; t 3]. vm_compute. split; [reflexivity|]. repeat constructor.
Qed.

(** ** Variant 2: single_request that does not drain the body of a non-200 reply
    (mutants/C19_no_drain.patch): the invariant's "no response attached" part fails after a
    status-with-length fault, so the next healthy call fails (the model of the real code says Own). *)

Definition single_request_nodrain (host handler : str) (st : state) (tok : val) : state * res body :=
  let c := make_connection st in
  match h_request c (t_script st) tok with
  | (_, script', Raise e) => (transport_close script', Raise e)
  | (c1, script', Ok _) =>
      match h_getresponse c1 with
      | (_, Raise e) => (transport_close script', Raise e)
      | (c2, Ok r) =>
          if r_status r =? 200
          then (mkState (Some (h_read c2 r)) script', Ok (r_body r))
          else (mkState (Some c2) script', Raise (ETransport (url_of host handler) (r_status r)))
      end
  end.

Example nodrain_differs :
  let st1 := fst (single_request_nodrain H P (init [FStatusLen 503]) (t 0)) in
  idle st1 = false /\
  idle (fst (single_request H P (init [FStatusLen 503]) (t 0))) = true /\
  snd (single_request_nodrain H P st1 (t 1)) = Raise ENotReady /\
  snd (single_request H P (fst (single_request H P (init [FStatusLen 503]) (t 0))) (t 1)) = Ok (BReply (t 1)).
Proof. vm_compute. repeat split; reflexivity. Qed.
