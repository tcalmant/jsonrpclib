(** C04: non-vacuity examples and the refutation witness of the pinned code (finding F2). *)
From JR Require Import Dispatch Dispatch_examples.

Example C04_hypotheses :
  is_notification_entry (notify "fail") = true /\ method_of (notify "fail") = Some "fail"
  /\ sv_pool ex_srv = false.
Proof. repeat split. Qed.

Example C04_inline_instance :
  answer_entry ex_body ex_sigs V2 ex_srv None (notify "fail") = (None, [EvCall 1%nat (VList [])]).
Proof. exact ex_notification_inline. Qed.

Example C04_raising_dispatcher_instance :
  answer_entry ex_body ex_sigs V2 ex_srv (Some 4%nat) (notify "ok")
  = (None, [EvCall 4%nat (dispatch_args "ok" (VList []))]).
Proof. exact ex_notification_custom_raises. Qed.

Example C04_pooled_instance :
  answer_entry ex_body ex_sigs V2 (mkSrv ex_reg true true) None (notify "ok")
  = (None, [EvEnqueue None "ok" (VList []) (Some V2)])
  /\ drain ex_body ex_sigs ex_reg [EvEnqueue None "ok" (VList []) (Some V2)] = [EvCall 0%nat (VList [])].
Proof. split; reflexivity. Qed.

Example C04_v1_null_id_and_empty_id :
  is_notification_entry (VDict [(VStr "method", VStr "ok"); (VStr "id", VNone)]) = true
  /\ is_notification_entry (VDict [(VStr "jsonrpc", VStr "2.0"); (VStr "method", VStr "ok"); (VStr "id", VStr "")]) = true
  /\ is_notification_entry (VDict [(VStr "jsonrpc", VStr "2.0"); (VStr "method", VStr "ok"); (VStr "id", VInt 0)]) = false.
Proof. repeat split. Qed.

(** pinned code: F2 *)
Example C04_F2_refuted :
  exists e, is_notification_entry e = true
            /\ fst (answer_entry_v0 ex_body ex_sigs V2 ex_srv (Some 4%nat) e) <> None.
Proof. exact F2_refuted. Qed.
