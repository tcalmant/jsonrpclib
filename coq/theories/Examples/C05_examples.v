(** C05: non-vacuity examples (each theorem's hypotheses are met by concrete registries / names /
    arguments) and the witness of known finding F13. *)
From JR Require Import Dispatch Dispatch_examples.

Example C05_private_hypotheses :
  has_underscore_segment "sub.__d" = true /\ lookup "sub.__d" (r_funcs ex_reg) = None
  /\ (exists inst, r_instance ex_reg = Some inst /\ i_dispatch inst = None).
Proof. repeat split. eexists. split; reflexivity. Qed.

(** the private attribute exists and is callable, and is still not reachable *)
Example C05_private_exists_but_unreachable :
  lookup "_priv" [("pub", ACallable 0%nat); ("_priv", ACallable 0%nat)] = Some (ACallable 0%nat)
  /\ dispatch ex_body ex_sigs ex_reg "_priv" (VList []) = (DFault (-32601) "Method _priv not supported.", []).
Proof. split; reflexivity. Qed.

Example C05_bad_arity_hypotheses :
  lookup "two" (r_funcs ex_reg) = Some 2%nat /\ call_binds (ex_sigs 2%nat) (VList [VInt 1]) = false
  /\ call_binds (ex_sigs 2%nat) (VList [VInt 1; VInt 2]) = true
  /\ call_binds (ex_sigs 2%nat) (VDict [(VStr "a", VInt 1); (VStr "z", VInt 2)]) = false.
Proof. repeat split. Qed.

Example C05_method_exception_hypotheses :
  lookup "fail" (r_funcs ex_reg) = Some 1%nat /\ call_binds (ex_sigs 1%nat) (VList []) = true
  /\ ex_body 1%nat (VList []) = RaiseExn "ValueError" "boom" /\ "ValueError" <> "TypeError".
Proof. repeat split. discriminate. Qed.

Example C05_invalid_hypothesis :
  wellformed_entry (VDict [(VStr "jsonrpc", VStr "2.0"); (VStr "method", VInt 5); (VStr "id", VInt 1)]) = false
  /\ wellformed_entry (VInt 5) = false
  /\ wellformed_entry (VDict [(VStr "method", VStr "ok")]) = false
  /\ wellformed_entry (VDict [(VStr "id", VInt 1); (VStr "method", VStr "ok"); (VStr "params", VStr "s")]) = false.
Proof. repeat split. Qed.

(** known finding F13 on a concrete callable: it ran, and the code is -32602 *)
Definition f13_table : list cdesc := [mkC default_sig (BTypeErr "unsupported operand")].
Example C05_F13_witness :
  dispatch (body_of f13_table) (sigs_of f13_table) (mkReg [("f", 0%nat)] None) "f" (VList [VInt 1])
  = (DFault (-32602) "Invalid parameters: unsupported operand", [EvCall 0%nat (VList [VInt 1])]).
Proof. reflexivity. Qed.
