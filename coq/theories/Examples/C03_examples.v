(** C03: non-vacuity examples and the refutation witnesses of the pinned code (finding F1). *)
From JR Require Import Dispatch Dispatch_examples.

Example C03_batch_hypothesis : filter expects_answer ex_batch <> [].
Proof. exact ex_batch_answerable. Qed.

Example C03_batch_ids_in_order :
  map reply_id (fst (batch ex_body ex_sigs V2 ex_srv None ex_batch))
  = [Some (VFlt (F 3 2)); Some VNone; Some (VList [VInt 1]); Some (VDict [])].
Proof. exact ex_batch_ids. Qed.

Example C03_type_exact_ids :
  map reply_id (fst (batch ex_body ex_sigs V1 ex_srv None
        [call "ok" (VList []) (VInt 0); call "ok" (VList []) (VBool false); call "ok" (VList []) (VFlt (F 0 1));
         call "ok" (VList []) (VFlt FNegZero)]))
  = [Some (VInt 0); Some (VBool false); Some (VFlt (F 0 1)); Some (VFlt FNegZero)].
Proof. reflexivity. Qed.

Example C03_all_notifications_hypothesis :
  [notify "ok"; notify "fail"; notify "nope"] <> []
  /\ forallb is_notification_entry [notify "ok"; notify "fail"; notify "nope"] = true.
Proof. exact ex_all_notifications. Qed.

(** pinned code: F1 on both exception paths *)
Example C03_F1_refuted_custom_dispatch :
  exists e o log, answer_entry_v0 ex_body ex_sigs V2 ex_srv (Some 4%nat) e = (Some o, log)
                  /\ reply_id o <> Some (usable_id e).
Proof. exact F1_refuted_custom_dispatch. Qed.

Example C03_F1_refuted_conversion :
  exists e o log, answer_entry_v0 ex_body ex_sigs V2 ex_srv None e = (Some o, log)
                  /\ reply_id o <> Some (usable_id e).
Proof. exact F1_refuted_conversion. Qed.
