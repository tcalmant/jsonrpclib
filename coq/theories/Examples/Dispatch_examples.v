(** Non-vacuity examples for the dispatch group (C02, C03, C04, C05) and the models of the
    PINNED (pre-fix) code with the refutation witnesses of findings F1, F2 and F15. *)
From JR Require Import Dispatch DispatchProofs.

(** ** A concrete registry: the hypotheses of the theorems are satisfiable *)

Definition ex_table : list cdesc := [
  mkC default_sig (BReturn (VInt 42));                                   (* 0  "ok"   *)
  mkC default_sig (BRaise "ValueError" "boom");                          (* 1  "fail" *)
  mkC (mkSig ["a"; "b"] 0 false [] false) (BReturn (VStr "two"));        (* 2  "two"  *)
  mkC default_sig (BReturn (VOpaque 0));                                 (* 3  "opq": conversion fails *)
  mkC default_sig (BRaise "RuntimeError" "dm-boom");                     (* 4  a raising dispatch function *)
  mkC default_sig (BReturn (VTuple [VInt 1; VDict [(VStr "k", VNone)]]))  (* 5  "tup"  *)
].

Definition ex_reg : registry :=
  mkReg [("ok", 0%nat); ("fail", 1%nat); ("two", 2%nat); ("opq", 3%nat); ("tup", 5%nat)]
        (Some (mkInst None [("pub", ACallable 0%nat); ("_priv", ACallable 0%nat);
                            ("sub", AObj [("deep", ACallable 0%nat); ("__d", ACallable 0%nat)])])).

Definition ex_srv : server := mkSrv ex_reg false true.
Definition ex_body := body_of ex_table.
Definition ex_sigs := sigs_of ex_table.

(** a computable sufficient condition for [results_dumpable] on table-defined callables *)
Definition table_results_ok (jc : bool) (t : list cdesc) : bool :=
  forallb (fun d => match cd_beh d with
                    | BReturn v => match conv jc v with Ok v' => dumpable v' | Raise _ => true end
                    | BEcho => false
                    | _ => true
                    end) t.

Lemma table_results_dumpable jc t : table_results_ok jc t = true -> results_dumpable (body_of t) jc.
Proof.
  intros H c a v v' Hb Hc. unfold body_of in Hb.
  destruct (nth_error t c) as [d|] eqn:E; [|discriminate].
  apply nth_error_In, (forallb_In H) in E. destruct (cd_beh d); try discriminate.
  inversion Hb; subst. now rewrite Hc in E.
Qed.

Example ex_results_dumpable : results_dumpable ex_body true.
Proof. apply table_results_dumpable. reflexivity. Qed.

Definition call (method : str) (params : val) (i : val) : val :=
  VDict [(VStr "jsonrpc", VStr "2.0"); (VStr "method", VStr method); (VStr "params", params); (VStr "id", i)].
Definition notify (method : str) : val :=
  VDict [(VStr "jsonrpc", VStr "2.0"); (VStr "method", VStr method)].

(** C02: a reply per kind of body *)
Example ex_reply_ok :
  marshaled_dispatch ex_body ex_sigs V2 ex_srv None (PValue (call "ok" (VList []) (VInt 0)))
  = Ok (ROne (resp_obj V2 (VInt 0) (VInt 42)), [EvCall 0%nat (VList [])]).
Proof. reflexivity. Qed.

Example ex_reply_parse_error :
  marshaled_dispatch ex_body ex_sigs V1 ex_srv None PError
  = Ok (ROne (err_obj V1 VNone (-32700) "Request invalid."), []).
Proof. reflexivity. Qed.

Example ex_reply_conversion_fails :
  fst (answer_entry ex_body ex_sigs V2 ex_srv None (call "opq" (VList []) (VBool false)))
  = Some (err_obj V2 (VBool false) (-32603) "ConversionError:").
Proof. reflexivity. Qed.

Example ex_reply_tuple_result :
  fst (answer_entry ex_body ex_sigs V2 ex_srv None (call "tup" (VList []) (VInt 1)))
  = Some (resp_obj V2 (VInt 1) (VList [VInt 1; VDict [(VStr "k", VNone)]])).
Proof. reflexivity. Qed.

(** C03: a mixed batch — hypotheses of C03_batch_reply / C03_empty_batch_body are met *)
Definition ex_batch : list val :=
  [call "ok" (VList []) (VFlt (F 3 2)); notify "ok"; VInt 5; call "nope" (VList []) (VList [VInt 1]);
   VDict [(VStr "jsonrpc", VStr "2.0"); (VStr "id", VDict [])]].

Example ex_batch_answerable : filter expects_answer ex_batch <> [].
Proof. discriminate. Qed.

Example ex_batch_ids :
  map reply_id (fst (batch ex_body ex_sigs V2 ex_srv None ex_batch))
  = [Some (VFlt (F 3 2)); Some VNone; Some (VList [VInt 1]); Some (VDict [])].
Proof. reflexivity. Qed.

Example ex_all_notifications :
  [notify "ok"; notify "fail"; notify "nope"] <> []
  /\ forallb is_notification_entry [notify "ok"; notify "fail"; notify "nope"] = true.
Proof. split; [discriminate|reflexivity]. Qed.

(** C04: hypotheses of C04_inline met; the notification ran once and is not answered *)
Example ex_notification_inline :
  answer_entry ex_body ex_sigs V2 ex_srv None (notify "fail") = (None, [EvCall 1%nat (VList [])]).
Proof. reflexivity. Qed.

Example ex_notification_custom_raises :
  answer_entry ex_body ex_sigs V2 ex_srv (Some 4%nat) (notify "ok")
  = (None, [EvCall 4%nat (dispatch_args "ok" (VList []))]).
Proof. reflexivity. Qed.

Example ex_notification_pooled :
  answer_entry ex_body ex_sigs V2 (mkSrv ex_reg true true) None (notify "ok")
  = (None, [EvEnqueue None "ok" (VList []) (Some V2)]).
Proof. reflexivity. Qed.

(** C05: hypotheses met *)
Example ex_private : has_underscore_segment "sub.__d" = true /\ lookup "sub.__d" (r_funcs ex_reg) = None.
Proof. split; reflexivity. Qed.

Example ex_private_code :
  dispatch ex_body ex_sigs ex_reg "sub.__d" (VList []) = (DFault (-32601) "Method sub.__d not supported.", []).
Proof. reflexivity. Qed.

Example ex_public_nested :
  dispatch ex_body ex_sigs ex_reg "sub.deep" (VList []) = (DVal (VInt 42), [EvCall 0%nat (VList [])]).
Proof. reflexivity. Qed.

Example ex_bad_arity : call_binds (ex_sigs 2%nat) (VList [VInt 1]) = false.
Proof. reflexivity. Qed.

Example ex_good_arity : call_binds (ex_sigs 2%nat) (VDict [(VStr "b", VInt 1); (VStr "a", VInt 2)]) = true.
Proof. reflexivity. Qed.

Example ex_method_exception :
  ex_body 1%nat (VList []) = RaiseExn "ValueError" "boom" /\ "ValueError" <> "TypeError".
Proof. split; [reflexivity|discriminate]. Qed.

(** ** The pinned code (before the repairs) *)

Section Pinned.
  Variable body : cid -> val -> outcome.
  Variable sigs : cid -> signature.

  (** _marshaled_single_dispatch as pinned: the Faults built on the two exception paths carry no
      rpcid (F1), and the first one is returned before the notification test (F2) *)
  Definition single_dispatch_v0 (srvf : form) (srv : server) (dm : option cid)
             (m : list (val * val)) (method : str) (params : val) : option val * list event :=
    let f := request_form srvf m in
    let notif := is_notification m in
    if notif && sv_pool srv
    then (None, [EvEnqueue dm method params (match dm with Some _ => None | None => Some f end)])
    else
      let '(r, log) := run_target body sigs (sv_reg srv) dm method params in
      let rpcid := request_id m in
      match r with
      | DExn cls msg => (Some (err_obj f VNone (-32603) (cls ++ ":" ++ msg)), log)
      | DFault code msg => if notif then (None, log) else (Some (err_obj f rpcid code msg), log)
      | DVal v =>
          if notif then (None, log)
          else match (if sv_jsonclass srv then convert v else Ok v) with
               | Ok v' => (Some (resp_obj f rpcid v'), log)
               | Raise _ => (Some (err_obj f VNone (-32603) "ConversionError:"), log)
               end
      end.

  (** validate_request as pinned: the id is not checked (F15) *)
  Definition validate_request_v0 (srvf : form) (e : val) : validated :=
    match e with
    | VDict m =>
        let rpcid := request_id m in
        if negb (has_version m)
        then Invalid (mkFault (-32600) "Request invalid." rpcid srvf)
        else
          let params := match dget m "params" with Some p => p | None => VList [] end in
          match dget m "method" with
          | Some (VStr s) =>
              if negb (String.eqb s "") && is_param_container params
              then Valid m s params
              else Invalid (mkFault (-32600) "Invalid request parameters or method." rpcid srvf)
          | _ => Invalid (mkFault (-32600) "Invalid request parameters or method." rpcid srvf)
          end
    | _ => Invalid (mkFault (-32600) "Request must be a dict" VNone srvf)
    end.

  Definition answer_entry_v0 (srvf : form) (srv : server) (dm : option cid) (e : val) : option val * list event :=
    match validate_request_v0 srvf e with
    | Invalid ft => (Some (fault_dump ft), [])
    | Valid m method params => single_dispatch_v0 srvf srv dm m method params
    end.
End Pinned.

(** F1: on the pinned tree the response to a request whose custom dispatch function raises does
    not carry the request's id *)
Example F1_refuted_custom_dispatch :
  exists e o log, answer_entry_v0 ex_body ex_sigs V2 ex_srv (Some 4%nat) e = (Some o, log)
                  /\ reply_id o <> Some (usable_id e).
Proof. exists (call "ok" (VList []) (VInt 9)). eexists _, _. split; [reflexivity|]. cbn. discriminate. Qed.

Example F1_refuted_conversion :
  exists e o log, answer_entry_v0 ex_body ex_sigs V2 ex_srv None e = (Some o, log)
                  /\ reply_id o <> Some (usable_id e).
Proof. exists (call "opq" (VList []) (VInt 0)). eexists _, _. split; [reflexivity|]. cbn. discriminate. Qed.

(** F2: on the pinned tree a notification whose dispatch function raises is answered *)
Example F2_refuted :
  exists e, is_notification_entry e = true
            /\ fst (answer_entry_v0 ex_body ex_sigs V2 ex_srv (Some 4%nat) e) <> None.
Proof. exists (notify "ok"). split; [reflexivity|]. cbn. discriminate. Qed.

(** F15: on the pinned tree an id the class translator turned into an object is echoed into the
    response, which json.dumps then refuses: _marshaled_dispatch raises *)
Example F15_refuted :
  exists e o log, answer_entry_v0 ex_body ex_sigs V2 ex_srv None e = (Some o, log) /\ dumpable o = false.
Proof. exists (call "ok" (VList []) (VOpaque 0)). eexists _, _. split; reflexivity. Qed.

(** the repaired model on the same witnesses *)
Example F1_fixed : reply_id (match fst (answer_entry ex_body ex_sigs V2 ex_srv (Some 4%nat) (call "ok" (VList []) (VInt 9)))
                             with Some o => o | None => VNone end) = Some (VInt 9).
Proof. reflexivity. Qed.

Example F15_fixed :
  fst (answer_entry ex_body ex_sigs V2 ex_srv None (call "ok" (VList []) (VOpaque 0)))
  = Some (err_obj V2 VNone (-32600) "Request id invalid.").
Proof. reflexivity. Qed.
