(** Non-vacuity examples for C17 and the model of the PRE-FIX body loop with its refutation (finding F11). *)
From JR Require Import Wire WireProofs.
From Coq Require Import Lia.
Local Open Scope N_scope.
Local Open Scope list_scope.

(** ** the codec on the boundary code points *)
Example boundary_points :
  utf8_enc [0; 127; 128; 2047; 2048; 55295; 57344; 65535; 65536; 1114111]
  = [0; 127; 194;128; 223;191; 224;160;128; 237;159;191; 238;128;128; 239;191;191; 240;144;128;128; 244;143;191;191].
Proof. reflexivity. Qed.
Example boundary_points_scalar : forallb is_scalar [0; 127; 128; 2047; 2048; 55295; 57344; 65535; 65536; 1114111] = true.
Proof. reflexivity. Qed.
Example surrogate_not_scalar : is_scalar 55296 = false /\ is_scalar 57343 = false /\ is_scalar 1114112 = false.
Proof. repeat split. Qed.
(** strictness: overlong forms, surrogates, > U+10FFFF, truncation, stray continuation *)
Example rejects :
  map utf8_dec [[192;128]; [193;191]; [224;159;191]; [237;160;128]; [240;143;191;191]; [244;144;128;128];
                [245;128;128;128]; [195]; [226;130]; [240;159;152]; [128]; [97;195]; [195;40]]
  = repeat (Raise dec_err) 13.
Proof. reflexivity. Qed.

(** ** hypotheses of the theorems are satisfiable *)
Example caps_positive : forallb (fun c => 0 <? c) [1; 3; 1024; 1] = true.
Proof. reflexivity. Qed.
Example server_short_reads :
  server_body 4 (blen (utf8_enc [97; 233; 8364; 128512])) (utf8_enc [97; 233; 8364; 128512], [1; 1; 1; 2; 1; 1; 1])
  = Ok [97; 233; 8364; 128512].
Proof. reflexivity. Qed.
Example client_split_inside_character :
  target_close (fold_left target_feed [[97; 195]; [169; 226; 130]; []; [172]] target_init) = PStr [97; 233; 8364].
Proof. reflexivity. Qed.
Example client_invalid_passthrough :
  target_close (fold_left target_feed [[97; 195]; [40]] target_init) = PBytes [97; 195; 40].
Proof. reflexivity. Qed.
Example targets :
  match proxy_init "http" "" "a=1&b=%20" false, proxy_init "unix+http" "/tmp/s.sock" "x" false, proxy_init "https" "/p/q" "" false with
  | Ok a, Ok b, Ok c => (request_target a, request_target b, request_target c)
  | _, _, _ => (""%string, ""%string, ""%string)
  end = ("/?a=1&b=%20"%string, "/?x"%string, "/p/q"%string).
Proof. reflexivity. Qed.
Example schemes :
  map (fun st => accepted (fst st) (snd st))
      [("http"%string, false); ("https"%string, false); ("unix+http"%string, false); ("unix+https"%string, true);
       ("unix+https"%string, false); ("ftp"%string, true); (""%string, false); ("unix+"%string, true); ("unix+unix+http"%string, false)]
  = [true; true; true; true; false; false; false; false; false].
Proof. reflexivity. Qed.
Example client_headers :
  match send_content "application/json-rpc" "ua" [("Content-Length"%string, "7"%string); ("X-A"%string, "1"%string); ("CONTENT-TYPE"%string, "t"%string)] (PStr [233]) with
  | Ok (hs, b) => (framing hs, b)
  | Raise _ => (([], []), [])
  end = ((["application/json-rpc"%string], ["2"%string]), [195; 169]).
Proof. reflexivity. Qed.

(** a gzip pair satisfying the section hypothesis (a one-byte frame stands for the real format) *)
Definition toy_gz (b : bytes) : bytes := 31 :: b.
Definition toy_gunz (b : bytes) : res bytes := match b with 31 :: r => Ok r | _ => Raise EOS end.
Example toy_gzip_ok : forall b, toy_gunz (toy_gz b) = Ok b.
Proof. reflexivity. Qed.
Example toy_gzip_parse :
  parse_response toy_gunz true [1; 2] (toy_gz [97; 195; 169; 98]) = Ok (PStr [97; 233; 98]).
Proof. reflexivity. Qed.

(** ** F11 — the pinned (pre-fix) body loop, SimpleJSONRPCServer.py:476-488 of the snapshot:
    [chunks.append(utils.from_bytes(raw_chunk))] decodes every chunk on its own, [data = "".join(chunks)] *)
Fixpoint body_loop_v0 (fuel : bytes) (M rem : N) (f : rfile) (chunks : list text) : res (list text) :=
  if rem =? 0 then Ok chunks
  else match fuel with
       | [] => Raise EUnmodelled
       | _ :: fuel' =>
           let '(raw, f') := rfile_read (N.min rem M) f in
           match raw with
           | [] => Ok chunks
           | _ => do t <- from_bytes (PBytes raw);
                  body_loop_v0 fuel' M (rem - blen raw) f' (chunks ++ [t])
           end
       end.

Definition server_body_v0 (M clen : N) (f : rfile) : res text :=
  do chunks <- body_loop_v0 (0 :: fst f) M clen f [];
  Ok (concat chunks).

(** small instance: chunk size 4, body "aaaé" + "b" (the two bytes of "é" straddle the boundary) *)
Example F11_small :
  utf8_dec [97; 97; 97; 195; 169; 98] = Ok [97; 97; 97; 233; 98]
  /\ server_body_v0 4 6 ([97; 97; 97; 195; 169; 98], []) = Raise dec_err
  /\ server_body 4 6 ([97; 97; 97; 195; 169; 98], []) = Ok [97; 97; 97; 233; 98].
Proof. repeat split. Qed.

(** the same defect through a short read, with the real chunk size *)
Example F11_short_read :
  server_body_v0 max_chunk_size 3 ([97; 195; 169], [2]) = Raise dec_err
  /\ server_body max_chunk_size 3 ([97; 195; 169], [2]) = Ok [97; 233].
Proof. split; vm_compute; reflexivity. Qed.

Lemma dec_ascii_prefix m rest : utf8_dec (repeat 97 m ++ rest) = match utf8_dec rest with Ok t => Ok (repeat 97 m ++ t) | Raise e => Raise e end.
Proof.
  induction m as [|m IH]; cbn [repeat List.app].
  - now destruct (utf8_dec rest).
  - change (utf8_dec (97 :: repeat 97 m ++ rest)) with (cons_ok 97 (utf8_dec (repeat 97 m ++ rest))).
    rewrite IH. now destruct (utf8_dec rest).
Qed.

(** parametric refutation: for EVERY chunk size M = m + 1 > 0 the body of M - 1 ASCII bytes followed by
    the two bytes of U+00E9 is valid UTF-8, the repaired loop decodes it, the pinned loop raises
    (UnicodeDecodeError -> HTTP 500).  M = 10 MiB gives the real 10 MiB + 1 replay. *)
Theorem F11_refuted : forall m : nat,
  let M := N.of_nat (S m) in
  let body := repeat 97 m ++ [195; 169] in
  0 < M
  /\ utf8_dec body = Ok (repeat 97 m ++ [233])
  /\ server_body M (blen body) (body, []) = Ok (repeat 97 m ++ [233])
  /\ server_body_v0 M (blen body) (body, []) = Raise dec_err.
Proof.
  intros m M body.
  assert (Hdec : utf8_dec body = Ok (repeat 97 m ++ [233])).
  { unfold body. rewrite dec_ascii_prefix. reflexivity. }
  split; [unfold M; lia|]. split; [exact Hdec|]. split.
  - rewrite server_reassembly by (unfold M; reflexivity || lia). exact Hdec.
  - (* the first read returns [a], the first [M] bytes: the ASCII run and the lead byte of the pair *)
    pose (a := repeat 97 m ++ [195]).
    assert (Ha : blen a = M) by (unfold blen, a; rewrite app_length, repeat_length; cbn [length]; lia).
    replace body with (a ++ [169]) by (unfold a, body; now rewrite <- app_assoc).
    unfold server_body_v0. cbn [fst body_loop_v0]. rewrite blen_app, Ha. unfold rfile_read.
    replace (M + blen [169] =? 0) with false by lia.
    replace (N.min (M + blen [169]) M) with (blen a) by lia. rewrite takeN_app.
    destruct a as [|y r] eqn:Hraw; [destruct m; discriminate Hraw|].
    rewrite <- Hraw. cbn [from_bytes]. unfold a. rewrite dec_ascii_prefix. reflexivity.
Qed.

(** the instance the replay of F11 uses: M = 10 MiB, a body of 10 MiB + 1 bytes *)
Corollary F11_refuted_real_chunk_size :
  exists m : nat,
    N.of_nat (S m) = max_chunk_size /\
    let body := repeat 97 m ++ [195; 169] in
    blen body = max_chunk_size + 1
    /\ utf8_dec body = Ok (repeat 97 m ++ [233])
    /\ server_body_v0 max_chunk_size (blen body) (body, []) = Raise dec_err.
Proof.
  pose (m := N.to_nat (N.pred max_chunk_size)).
  assert (E : N.of_nat (S m) = max_chunk_size) by (unfold m, max_chunk_size; lia).
  clearbody m. exists m. split; [exact E|].
  destruct (F11_refuted m) as (_ & H1 & _ & H2). cbv zeta. rewrite E in H2.
  split; [|split; assumption].
  unfold blen. rewrite app_length, repeat_length. cbn [length]. lia.
Qed.
