(** Non-vacuity for Props/C09.v, C10.v, C11.v: concrete reachable states that meet the hypotheses of the growth
    theorems with a non-empty backlog, a run of the single-worker FIFO and one of two workers that is not FIFO, and stop() waiting for the pool lock. *)
From JR Require Import PoolInvDefs PoolInvE PoolInvH PoolFifo.

Definition ex_progs (c : nat) : list op :=
  match c with 0%nat => [OStart] | 1%nat => [OEnqueue; OEnqueue; OEnqueue] | _ => [] end.
(* start() runs to completion, then the client thread runs; no worker thread is ever scheduled *)
Definition ex_sched (k : nat) : list (thr * bool) := repeat (TC 0%nat, false) 30 ++ repeat (TC 1%nat, false) k.

(** at rest, max_threads = 1: three tasks wait for the only worker: the right-hand disjunct is the one that holds *)
Example ex_rest_full :
  let s := run (ex_sched 80) (init 1 0 ex_progs) in
  start_done s = true /\ (forall c, ewin (cpc (cs s c)) = false) /\ length (q s) = 3%nat /\
  count serving (ws s) (next_w s) = 1%nat /\ count holding (ws s) (next_w s) = 0%nat /\ nb_threads s = 1.
Proof.
  cbv zeta. repeat split; try (vm_compute; reflexivity).
  intros c. destruct c as [|[|c]]; vm_compute; reflexivity.
Qed.

(** at rest, max_threads = 3: each of the three waiting tasks got its own worker: the left-hand disjunct holds with equality *)
Example ex_rest_grown :
  let s := run (ex_sched 80) (init 3 0 ex_progs) in
  start_done s = true /\ (forall c, ewin (cpc (cs s c)) = false) /\ length (q s) = 3%nat /\
  count serving (ws s) (next_w s) = 3%nat /\ count holding (ws s) (next_w s) = 0%nat /\
  count retiring (ws s) (next_w s) = 0%nat.
Proof.
  cbv zeta. repeat split; try (vm_compute; reflexivity).
  intros c. destruct c as [|[|c]]; vm_compute; reflexivity.
Qed.

(** inside the window of enqueue(): the task is in the queue, its thread is not yet started *)
Example ex_window :
  let s := run (ex_sched 3) (init 3 0 ex_progs) in
  stopped s = false /\ ctl s <> CSTQsize /\ ewin (cpc (cs s 1%nat)) = true /\ length (q s) = 1%nat /\
  count serving (ws s) (next_w s) = 0%nat.
Proof. cbv zeta. repeat split; try (vm_compute; reflexivity). vm_compute. discriminate. Qed.

(** FIFO, non-vacuity: a single worker runs three tasks *)
Definition ex_fifo_sched : list (thr * bool) :=
  repeat (TC 0%nat, false) 30 ++ repeat (TC 1%nat, false) 80 ++ repeat (TW 0%nat, false) 60.
Example ex_fifo_log : start_log (run ex_fifo_sched (init 1 0 ex_progs)) = [2; 1; 0]%nat.
Proof. vm_compute. reflexivity. Qed.

(** progress, non-vacuity: stop() blocked on the pool lock, which a worker holds between taking a task and
    beginning its body; the controlling thread has no step (not even a timeout), the worker has one *)
Definition ex_stop_progs (c : nat) : list op :=
  match c with 0%nat => [OStart; OStop] | 1%nat => [OEnqueue] | _ => [] end.
Definition ex_stop_sched : list (thr * bool) :=
  repeat (TC 1%nat, false) 20 ++ repeat (TC 0%nat, false) 12 ++ repeat (TW 0%nat, false) 3 ++ repeat (TC 0%nat, false) 2.
Example ex_stop_blocked :
  let s := run ex_stop_sched (init 2 0 ex_stop_progs) in
  stop_region (ctl s) = true /\ step s (TC 0%nat) false = None /\ step s (TC 0%nat) true = None /\
  lock s = Some (TW 0%nat, 1%nat) /\ wpc (ws s 0%nat) = WActInc /\ step s (TW 0%nat) false <> None.
Proof. cbv zeta. repeat split; try (vm_compute; reflexivity). vm_compute. discriminate. Qed.

(** FIFO: the hypothesis max_threads = 1 is needed: with two workers the second task can begin first
    (worker 0 takes task 0, worker 1 takes task 1 and begins it, then worker 0 begins task 0) *)
Definition ex_two_progs (c : nat) : list op := match c with 0%nat => [OStart] | 1%nat => [OEnqueue; OEnqueue] | _ => [] end.
Definition ex_two_sched : list (thr * bool) :=
  repeat (TC 1%nat, false) 40 ++ repeat (TC 0%nat, false) 40 ++ repeat (TW 0%nat, false) 2 ++ repeat (TW 1%nat, false) 8 ++
  repeat (TW 0%nat, false) 8.
Example ex_two_workers_not_fifo :
  start_log (run ex_two_sched (init 2 0 ex_two_progs)) = [0; 1]%nat /\ ~ desc (start_log (run ex_two_sched (init 2 0 ex_two_progs))).
Proof.
  assert (E : start_log (run ex_two_sched (init 2 0 ex_two_progs)) = [0; 1]%nat) by (vm_compute; reflexivity).
  split; [exact E|]. rewrite E. intros [H _]. specialize (H 1%nat (or_introl eq_refl)). lia.
Qed.
