(** Non-vacuity examples for C15 and the refutation witness of the pre-fix code (finding F9). *)
From JR Require Import JsonClass JsonClassObs.

Definition ex_v : val :=
  VDict [(VStr "a", VTuple [VBool true; VInt 1; VFlt (F 1 1); VFlt FNegZero]);
         (VStr "b", VSet [VStr ""; VNone]);
         (VInt 3, VFrozen [VList []; VDict []])].

Example ex_plain : plain ex_v = true. Proof. reflexivity. Qed.
Example ex_no_descriptor : no_descriptor ex_v = true. Proof. reflexivity. Qed.
Example ex_str_keys : str_keys (VDict [(VStr "k", VTuple [VInt 0])]) = true. Proof. reflexivity. Qed.
Example ex_no_handlers : no_handlers default_cfg = true. Proof. reflexivity. Qed.

Example ex_dump :
  jc_dump_top std_hfun fixed empty_env default_cfg None None None ex_v = Ok (norm ex_v).
Proof. reflexivity. Qed.

Example ex_roundtrip :
  jc_load_m fixed empty_env [] (norm ex_v) = (Ok (norm ex_v), norm ex_v, []).
Proof. reflexivity. Qed.

Example ex_leaves :
  leaves ex_v = [VBool true; VInt 1; VFlt (F 1 1); VFlt FNegZero; VStr ""; VNone].
Proof. reflexivity. Qed.

Definition ex_env : pyenv :=
  mkEnv [("m.Slotted", mkClass KSlot "m" "Slotted" [] ["a"; "b"] [] [] "" None [])] ["m"].

(** a well-formed descriptor whose second attribute does not exist on the class *)
Definition f9_witness : val :=
  VDict [(VStr "__jsonclass__", VList [VStr "m.Slotted"; VList []]); (VStr "a", VInt 1); (VStr "zzz", VInt 2)].

(** on the repaired code the failing load leaves the dict == to what it was *)
Example f9_fixed_fails : lres_val (jc_load_m fixed ex_env [] f9_witness) = Raise EAttr.
Proof. reflexivity. Qed.
Example f9_fixed_pure : canon (lres_arg (jc_load_m fixed ex_env [] f9_witness)) = canon f9_witness.
Proof. reflexivity. Qed.

(** the pinned code: no try/finally around lines 318-323 *)
Definition pinned_f9 : variant := mkVariant false true true.

Example F9_load_pure_refuted :
  exists E cl v, canon (lres_arg (jc_load_m pinned_f9 E cl v)) <> canon v.
Proof. exists ex_env, [], f9_witness. vm_compute. discriminate. Qed.

Example F9_what_the_caller_finds :
  lres_arg (jc_load_m pinned_f9 ex_env [] f9_witness) = VDict [(VStr "a", VInt 1); (VStr "zzz", VInt 2)].
Proof. reflexivity. Qed.
