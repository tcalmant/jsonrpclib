(** * C16 examples — non-vacuity of the C16 theorems on concrete schedules, and the model of the
    PRE-FIX FutureResult (threadpool.py before commit "fix: FutureResult notifies every registered
    callback exactly once", finding F10) with its refutation witnesses. *)
From Coq Require Import List Arith.
From JR Require Import Sched Future.
Import ListNotations.

(** ** The repaired protocol: concrete runs that meet the hypotheses of the theorems *)
Definition cfg1 : cfg := mk_cfg (BRet (Some 7)) [KRet; KRaise; KArity] [ODone; OResultT; OResult].

Definition X n := repeat (Go TX) n.
Definition R i n := repeat (Go (TR i)) n.

(** registrar 0 entirely before, registrar 1 overlapping completion, registrar 2 after it *)
Definition sched1 : list move :=
  R 0 6 ++ X 4 ++ R 1 3 ++ X 1 ++ R 1 3 ++ X 10 ++ R 2 7 ++ [Go (TO 0); Go (TO 1); Go (TO 1); Go (TO 1); Go (TO 2); Go (TO 2); Go (TO 2)].

Example settled_reached : xp (run_future cfg1 sched1) = X_end /\
  map (fun i => rp (run_future cfg1 sched1) i) [0; 1; 2; 3] = [R_end; R_end; R_end; R_lock].
Proof. vm_compute. split; reflexivity. Qed.

(** 0 was replaced by 1 before completion (owed nothing), 1 is the one in force (called by execute),
    2 registered afterwards (called by set_callback) *)
Example owed_and_calls :
  map (owed (run_future cfg1 sched1)) [0; 1; 2; 3] = [false; true; true; false] /\
  map (ncalls (run_future cfg1 sched1)) [0; 1; 2; 3] = [0; 1; 1; 0] /\
  logged (run_future cfg1 sched1) = 2 /\
  map (oobs (run_future cfg1 sched1)) [0; 1; 2] = [Some (ObsDone true); Some (ObsRet (Some 7)); Some (ObsRet (Some 7))].
Proof. vm_compute. repeat split; reflexivity. Qed.

Example timeout_before_finish :
  oobs (run_future cfg1 [Fire (TO 1); Go (TO 1); Go (TO 0)]) 1 = Some ObsTimeout /\
  oobs (run_future cfg1 [Fire (TO 1); Go (TO 1); Go (TO 0)]) 0 = Some (ObsDone false).
Proof. vm_compute. split; reflexivity. Qed.

(** a raising task: result() re-raises the same exception object *)
Example raising_task :
  oobs (run_future (mk_cfg (BRaise 3) [] [OResult]) (X 11 ++ [Go (TO 0); Go (TO 0); Go (TO 0)])) 0 = Some (ObsRaise 3).
Proof. vm_compute. reflexivity. Qed.

(** ** The pre-fix code (finding F10)

    def __notify(self):
        if self.__callback is not None:                       (N_test: reads __callback)
            self.__callback(data, exception, self.__extra)    (N_call: reads __callback and __extra)
    def set_callback(self, method, extra=None):
        self.__callback = method                              (pc 0)
        self.__extra = extra                                  (pc 1)
        if self._done_event.is_set(): self.__notify()         (pc 2, then N_test = 3, N_call = 4)
    def execute(...):  body (0); store data/exception (1); event.set() (2); finally: self.__notify() (3, 4) *)
Module Old.
  Record ost := mkO { oev : bool; ocb : option nat; oextra : option nat; oxp : nat; orp : nat -> nat;
                      ocalls : list (nat * option nat) }.
  Definition oinit := mkO false None None 0 (fun _ => 0) [].
  Definition ncall (s : ost) : ost :=
    match ocb s with
    | Some i => mkO (oev s) (ocb s) (oextra s) (oxp s) (orp s) ((i, oextra s) :: ocalls s)
    | None => s
    end.
  Definition set_xp (s : ost) (p : nat) := mkO (oev s) (ocb s) (oextra s) p (orp s) (ocalls s).
  Definition set_rp (s : ost) (i p : nat) := mkO (oev s) (ocb s) (oextra s) (oxp s) (fun j => if Nat.eqb j i then p else orp s j) (ocalls s).
  Inductive othread := OX | OR (i : nat).
  Definition ostep (s : ost) (t : othread) : option ost :=
    match t with
    | OX => match oxp s with
            | 0 => Some (set_xp s 1) | 1 => Some (set_xp s 2)
            | 2 => Some (set_xp (mkO true (ocb s) (oextra s) (oxp s) (orp s) (ocalls s)) 3)
            | 3 => Some (set_xp s (match ocb s with Some _ => 4 | None => 5 end))
            | 4 => Some (set_xp (ncall s) 5)
            | _ => None
            end
    | OR i => match orp s i with
              | 0 => Some (set_rp (mkO (oev s) (Some i) (oextra s) (oxp s) (orp s) (ocalls s)) i 1)
              | 1 => Some (set_rp (mkO (oev s) (ocb s) (Some i) (oxp s) (orp s) (ocalls s)) i 2)
              | 2 => Some (set_rp s i (if oev s then 3 else 5))
              | 3 => Some (set_rp s i (match ocb s with Some _ => 4 | None => 5 end))
              | 4 => Some (set_rp (ncall s) i 5)
              | _ => None
              end
    end.
  Definition orun := run ostep.
  Definition ocount (s : ost) (i : nat) := length (filter (fun k => Nat.eqb (fst k) i) (ocalls s)).
End Old.

(** registration stored before execute() reads it, its own is_set() test after the event is set:
    BOTH threads call the callback *)
Theorem F10_refuted_called_twice : exists sched,
  let s := Old.orun sched Old.oinit in
  Old.oxp s = 5 /\ Old.orp s 0 = 5 /\ Old.ocount s 0 = 2.
Proof.
  exists [Old.OR 0; Old.OR 0; Old.OX; Old.OX; Old.OX; Old.OR 0; Old.OR 0; Old.OR 0; Old.OX; Old.OX].
  vm_compute. repeat split; reflexivity.
Qed.

(** execute() notifies between the two assignments of set_callback: the callback gets a stale extra *)
Theorem F10_refuted_stale_extra : exists sched,
  let s := Old.orun sched Old.oinit in
  Old.oxp s = 5 /\ In (0, None) (Old.ocalls s).
Proof.
  exists [Old.OR 0; Old.OX; Old.OX; Old.OX; Old.OX; Old.OX].
  vm_compute. split; [reflexivity | left; reflexivity].
Qed.

(** the overlapping registration on the repaired model (lock + completed flag): one call, own extra *)
Example F10_fixed_once :
  let s := run_future (mk_cfg (BRet None) [KRet] []) (R 0 3 ++ X 5 ++ R 0 4 ++ X 10 ++ R 0 3) in
  ncalls s 0 = 1 /\ map c_extra (calls s) = [Some 0].
Proof. vm_compute. split; reflexivity. Qed.
