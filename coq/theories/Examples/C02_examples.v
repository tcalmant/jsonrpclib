(** C02: non-vacuity of the hypothesis of C02_total_wellformed / C02_http_status and the refutation
    witness of the pinned code (finding F15). *)
From JR Require Import Dispatch DispatchProofs Dispatch_examples C02.

(** the hypothesis [results_dumpable] holds for a concrete registry (a computable criterion) *)
Example C02_hypothesis_satisfiable : results_dumpable ex_body true.
Proof. exact ex_results_dumpable. Qed.

(** so the theorem applies to it: e.g. the HTTP answer to a parse error *)
Example C02_instance :
  exists r, do_post ex_body ex_sigs V2 ex_srv None PError = (200, r) /\ wf_reply r = true.
Proof. apply C02_http_status. exact ex_results_dumpable. Qed.

(** a callable returning a non-JSON object with class translation off breaks the hypothesis,
    and the model then raises: the hypothesis is needed *)
Example C02_hypothesis_needed :
  marshaled_dispatch ex_body ex_sigs V2 (mkSrv ex_reg false false) None
    (PValue (call "opq" (VList []) (VInt 1))) = Raise EType.
Proof. reflexivity. Qed.

(** pinned code: F15 *)
Example C02_F15_refuted :
  exists e o log, answer_entry_v0 ex_body ex_sigs V2 ex_srv None e = (Some o, log) /\ dumpable o = false.
Proof. exact F15_refuted. Qed.
